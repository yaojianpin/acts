(* What the primitives of model/Engine.v do to tasks, queue and trace.  `ext e e'` is the frame of a step that writes no
   state: every task keeps state, error, catch mark, fired rules and start time; the trace grows by events that are no
   state writes, its messages reporting current states; tasks are only added, the old ones keep their prev link and that
   of a new one points backwards; whatever is newly queued denotes a task.  The engine's compound functions are treated
   at the level of C02Core.xext.  W (a prev link points backwards) and QR (what is queued is a task), two conjuncts of the
   invariant C02Core.J, are defined here with the frame lemmas they need.
   A new primitive of the model needs a lemma xext_* (C02Core), teq_* if runs of the class of model/Class.v reach it
   (Progress), image_* if it touches the rows (ImageProofs). *)
From Coq Require Import List ZArith Bool Lia Permutation.
Import ListNotations.
From Acts.Gen Require Import GenState.
From Acts.Model Require Import Engine.
From Acts.Proofs Require Import ListFacts.

Lemma upd_length {A} (l : list A) i x : length (upd l i x) = length l.
Proof. apply lupd_length. Qed.
Lemma upd_nth {A} (l : list A) i j x d :
  nth j (upd l i x) d = if Nat.eqb j i && Nat.ltb i (length l) then x else nth j l d.
Proof. apply lupd_nth. Qed.

Lemma is_eq a b : is a b = true -> a = b.
Proof. apply internal_TaskState_dec_bl. Qed.
Lemma is_refl s : is s s = true. Proof. destruct s; reflexivity. Qed.
Definition ntasks (e : eng) := length (tasks e).
Lemma st_oob e i : ntasks e <= i -> st e i = SNone.
Proof. intros H. unfold st, tk. now rewrite nth_overflow. Qed.
Lemma st_range e i : st e i <> SNone -> i < ntasks e.
Proof. intros H. destruct (Nat.lt_ge_cases i (ntasks e)) as [Hi | Hi]; [exact Hi | now apply st_oob in Hi]. Qed.

(* the events the invariants speak about: state writes and timeout firings *)
Definition is_trans (x : ev) : bool := match x with ETrans _ _ _ _ _ => true | EFire _ _ _ _ _ => true | _ => false end.
(* LogInv.evok on the events that are no state writes, read against the engine's current states *)
Definition msg_ok (e : eng) (x : ev) : bool :=
  match x with
  | EMsg i s _ _ => is s (st e i) && negb (is s SPending) && negb (is s SRunning)
  | ENew _ _ (Some p) _ VNext => is_completed (st e p)
  | _ => true
  end.
Lemma msg_ok_st e e' x : (forall t, st e' t = st e t) -> msg_ok e' x = msg_ok e x.
Proof. intros H. destruct x as [? ? [p|] ? [|] | | | | | | |]; simpl; auto; now rewrite H. Qed.
Lemma forallb_msg_ok_st e e' l : (forall t, st e' t = st e t) -> forallb (msg_ok e') l = forallb (msg_ok e) l.
Proof. intros H. induction l as [|x l IH]; simpl; auto. now rewrite IH, (msg_ok_st e e' x H). Qed.
Definition ext (e e' : eng) : Prop :=
  (forall t, st e' t = st e t /\ t_err (tk e' t) = t_err (tk e t) /\ t_catch_done (tk e' t) = t_catch_done (tk e t) /\
             t_tmo_done (tk e' t) = t_tmo_done (tk e t) /\ t_start (tk e' t) = t_start (tk e t)) /\
  (exists l, trace e' = trace e ++ l /\ forallb (fun x => negb (is_trans x)) l = true /\ forallb (msg_ok e) l = true) /\
  ntasks e <= ntasks e' /\
  (forall t, t < ntasks e -> t_prev (tk e' t) = t_prev (tk e t)) /\
  (forall t, ntasks e <= t -> t < ntasks e' -> exists p, t_prev (tk e' t) = Some p /\ p < t) /\
  (forall i, In i (queue e') -> In i (queue e) \/ i < ntasks e').

Lemma ext_trans e1 e2 e3 : ext e1 e2 -> ext e2 e3 -> ext e1 e3.
Proof.
  intros (H1 & (l1 & T1 & F1 & M1) & L1 & K1 & N1 & Q1) (H2 & (l2 & T2 & F2 & M2) & L2 & K2 & N2 & Q2). split; [|split; [|split; [|split; [|split]]]].
  - intros t. destruct (H1 t) as (a & b & c & d & f), (H2 t) as (a' & b' & c' & d' & f'). repeat split; congruence.
  - exists (l1 ++ l2). rewrite T2, T1, app_assoc. split; auto. rewrite !forallb_app, F1, F2, M1. split; [reflexivity|].
    rewrite <- (forallb_msg_ok_st e1 e2 l2); [exact M2 | intros t; apply H1].
  - lia.
  - intros t Ht. rewrite K2 by lia. now apply K1.
  - intros t Ht1 Ht3. destruct (Nat.lt_ge_cases t (ntasks e2)).
    + rewrite K2 by assumption. now apply N1.
    + now apply N2.
  - intros i Hi. destruct (Q2 i Hi) as [Hi2 | Hi2]; [|right; exact Hi2].
    destruct (Q1 i Hi2) as [Hi1 | Hi1]; [left; exact Hi1 | right; lia].
Qed.

Lemma ext_same e e' : tasks e' = tasks e -> trace e' = trace e -> incl (queue e') (queue e) -> ext e e'.
Proof.
  intros Et Er Hq. unfold ext, ntasks, st, tk. rewrite Et, Er.
  split; [auto|]. split; [exists []; now rewrite app_nil_r|]. split; [lia|]. split; [auto|]. split; [intros; lia | auto].
Qed.
Lemma ext_refl e : ext e e. Proof. apply ext_same; [reflexivity | reflexivity | apply incl_refl]. Qed.
Lemma ext_with_rows e r : ext e (with_rows e r). Proof. now apply ext_same. Qed.
Lemma ext_with_pstate e s : ext e (with_pstate e s). Proof. now apply ext_same. Qed.
Lemma ext_with_prow e s : ext e (with_prow e s). Proof. now apply ext_same. Qed.
Lemma ext_with_exn e b : ext e (with_exn e b). Proof. now apply ext_same. Qed.
Lemma ext_with_clock e c : ext e (with_clock e c). Proof. now apply ext_same. Qed.
Lemma ext_oof e : ext e (out_of_fuel e). Proof. now apply ext_same. Qed.
Lemma ext_with_nodes e ns : ext e (with_nodes e ns). Proof. now apply ext_same. Qed.
Lemma ext_with_queue e q : incl q (queue e) -> ext e (with_queue e q). Proof. intros H. now apply ext_same. Qed.
Lemma ext_add_ev e x : is_trans x = false -> msg_ok e x = true -> ext e (add_ev e x).
Proof.
  intros H M. split; [intros t; repeat split; reflexivity|]. split; [exists [x]; simpl; now rewrite H, M|].
  split; [unfold ntasks; simpl; lia | split; [intros; reflexivity | split; [unfold ntasks; simpl; intros; lia | intros; left; assumption]]].
Qed.

Lemma tk_tmod e i f t : tk (tmod e i f) t = if Nat.eqb t i && Nat.ltb i (ntasks e) then f (tk e i) else tk e t.
Proof. unfold tk, tmod; simpl. apply upd_nth. Qed.
Lemma tmod_keeps {A} (g : task -> A) e i f t : (forall x, g (f x) = g x) -> g (tk (tmod e i f) t) = g (tk e t).
Proof. intros K. rewrite tk_tmod. destruct (Nat.eqb_spec t i); cbn [andb]; [subst|reflexivity]. destruct (Nat.ltb _ _); [apply K | reflexivity]. Qed.
Lemma st_tmod e i f t : (forall x, t_state (f x) = t_state x) -> st (tmod e i f) t = st e t.
Proof. apply (tmod_keeps t_state). Qed.
(* a task edit that keeps the fields ext speaks about *)
Definition keeps (f : task -> task) : Prop :=
  forall x, t_state (f x) = t_state x /\ t_err (f x) = t_err x /\ t_catch_done (f x) = t_catch_done x /\ t_prev (f x) = t_prev x /\
            t_tmo_done (f x) = t_tmo_done x /\ t_start (f x) = t_start x.
Lemma ntasks_tmod e i f : ntasks (tmod e i f) = ntasks e.
Proof. unfold ntasks, tmod; simpl. apply upd_length. Qed.
Lemma ext_tmod e i f : keeps f -> ext e (tmod e i f).
Proof.
  intros K. split; [|split; [|split; [|split; [|split]]]].
  - intros t. unfold st. repeat split; apply tmod_keeps; intros x; apply K.
  - exists []. simpl. rewrite app_nil_r. auto.
  - rewrite ntasks_tmod; lia.
  - intros t Ht. apply tmod_keeps. intros x; apply K.
  - rewrite ntasks_tmod. intros; lia.
  - intros j Hj. left. exact Hj.
Qed.

Lemma tk_persist e t : tk (persist e) t = tk e t. Proof. reflexivity. Qed.
Lemma st_persist e t : st (persist e) t = st e t. Proof. reflexivity. Qed.

Lemma ext_set_catches e i cs : ext e (set_catches e i cs). Proof. apply ext_tmod; intros x; repeat split; reflexivity. Qed.
Lemma ext_set_timeouts e i x : ext e (set_timeouts e i x). Proof. apply ext_tmod; intros y; repeat split; reflexivity. Qed.
Lemma ext_set_data e i v : ext e (set_data e i v). Proof. apply ext_tmod; intros y; repeat split; reflexivity. Qed.
Lemma ext_set_exposed e i v : ext e (set_exposed e i v). Proof. apply ext_tmod; intros y; repeat split; reflexivity. Qed.

(* simpl and cbn leave calls of sched / sched_next folded: they are read through tk_sched_v, ntasks_sched_v, ext_sched_v *)
Global Arguments sched_next : simpl never.
Global Arguments sched : simpl never.
Lemma tk_sched_v v e n p t : tk (sched_v v e n p) t = if Nat.eqb t (ntasks e) then new_task n (Some p) else tk e t.
Proof.
  unfold tk, sched_v, ntasks; simpl.
  destruct (Nat.eqb_spec t (length (tasks e))) as [->|Hne].
  - rewrite app_nth2, Nat.sub_diag; auto.
  - destruct (Nat.lt_ge_cases t (length (tasks e))).
    + now rewrite app_nth1.
    + rewrite !nth_overflow; auto. rewrite app_length; simpl; lia.
Qed.
Lemma tk_sched e n p t : tk (sched e n p) t = if Nat.eqb t (ntasks e) then new_task n (Some p) else tk e t.
Proof. apply tk_sched_v. Qed.
Lemma ntasks_sched_v v e n p : ntasks (sched_v v e n p) = S (ntasks e).
Proof. unfold ntasks, sched_v; simpl. rewrite app_length; simpl; lia. Qed.
Lemma ntasks_sched e n p : ntasks (sched e n p) = S (ntasks e).
Proof. apply ntasks_sched_v. Qed.
Lemma ext_sched_v v e n p : p < ntasks e -> (v = VNext -> is_completed (st e p) = true) -> ext e (sched_v v e n p).
Proof.
  intros Hp Hv. assert (tk_sched := tk_sched_v v). assert (ntasks_sched := ntasks_sched_v v).
  split; [|split; [|split; [|split; [|split]]]].
  - intros t. unfold st. rewrite tk_sched. destruct (Nat.eqb_spec t (ntasks e)) as [->|]; auto.
    unfold tk. rewrite nth_overflow by apply le_n. repeat split; reflexivity.
  - exists [ENew (ntasks e) n (Some p) (clock e) v]. repeat split; try reflexivity.
    simpl. destruct v; [now rewrite Hv | reflexivity].
  - rewrite ntasks_sched; lia.
  - intros t Ht. rewrite tk_sched. destruct (Nat.eqb_spec t (ntasks e)); [lia | reflexivity].
  - rewrite ntasks_sched. intros t H1 H2. assert (t = ntasks e) by lia. subst. exists p.
    rewrite tk_sched, Nat.eqb_refl. split; [reflexivity | exact Hp].
  - intros j Hj. unfold sched_v in Hj; cbn [queue add_ev with_trace with_queue] in Hj. apply in_app_or in Hj as [Hj | [<- | []]].
    + left. exact Hj.
    + right. rewrite ntasks_sched. apply Nat.lt_succ_diag_r.
Qed.
Lemma ext_sched e n p : p < ntasks e -> ext e (sched e n p).
Proof. intros H. apply ext_sched_v; [exact H | discriminate]. Qed.
Lemma ext_sched_next e n p : p < ntasks e -> is_completed (st e p) = true -> ext e (sched_next e n p).
Proof. intros H Hc. apply ext_sched_v; auto. Qed.
Lemma ntasks_sched_next e n p : ntasks (sched_next e n p) = S (ntasks e). Proof. apply ntasks_sched_v. Qed.
Lemma ext_len e e' : ext e e' -> ntasks e <= ntasks e'. Proof. intros (_ & _ & L & _). exact L. Qed.
Definition QR (e : eng) : Prop := forall i, In i (queue e) -> i < ntasks e.
Lemma QR_ext e e' : ext e e' -> QR e -> QR e'.
Proof.
  intros X HQ i Hi. pose proof (ext_len _ _ X). destruct X as (_ & _ & _ & _ & _ & Q6).
  destruct (Q6 i Hi) as [H1 | H1]; [specialize (HQ i H1); lia | exact H1].
Qed.
(* Task::update_data in two parts: spread writes each pair that is not private to the outermost ancestor of the writer
   that holds its key; then all pairs go to the writer *)
Definition spread e i (v : vars) : eng :=
  fold_left (fun ee (kv : key * val) =>
              if pri_regex (fst kv) then ee
              else match find (fun t => vhas (t_data (tk ee t)) (fst kv)) (rev (ancestors (S (length (tasks e))) e (parent e i))) with
                   | Some t => set_data ee t [kv]
                   | None => ee end) v e.
Lemma update_data_spread e i v : update_data e i v = set_data (spread e i v) i v.
Proof. reflexivity. Qed.
Lemma spread_inv (P : eng -> Prop) e i v :
  (forall ee t kv, In t (ancestors (S (length (tasks e))) e (parent e i)) -> pri_regex (fst kv) = false -> P ee -> P (set_data ee t [kv])) ->
  P e -> P (spread e i v).
Proof.
  intros Hs. unfold spread. apply fold_left_inv. intros ee kv H.
  destruct (pri_regex (fst kv)) eqn:Ep; [exact H|]. destruct (find _ _) as [t|] eqn:F; [|exact H].
  apply find_some in F as [F _]. apply in_rev in F. now apply Hs.
Qed.
Lemma update_data_inv (P : eng -> Prop) e i v : (forall ee t w, P ee -> P (set_data ee t w)) -> P e -> P (update_data e i v).
Proof. intros Hs H. rewrite update_data_spread. apply Hs, spread_inv; [intros ee t kv _ _; apply Hs | exact H]. Qed.
Lemma ext_update_data e i v : ext e (update_data e i v).
Proof. apply (update_data_inv (ext e)); [intros ee t w H; exact (ext_trans _ _ _ H (ext_set_data ee t w)) | apply ext_refl]. Qed.
Definition W (e : eng) : Prop := forall t, t < ntasks e -> match t_prev (tk e t) with Some p => p < t | None => True end.
Lemma W_ext e e' : ext e e' -> W e -> W e'.
Proof.
  intros (_ & _ & L & K & N & _) HW t Ht. destruct (Nat.lt_ge_cases t (ntasks e)).
  - rewrite K by assumption. now apply HW.
  - destruct (N t H Ht) as (p & -> & Hp). exact Hp.
Qed.

Lemma W_tmod e i f : (forall x, t_prev (f x) = t_prev x) -> W e -> W (tmod e i f).
Proof. intros K HW t Ht. rewrite ntasks_tmod in Ht. rewrite (tmod_keeps t_prev) by exact K. now apply HW. Qed.

Lemma ext_prev e e' t : ext e e' -> t < ntasks e -> t_prev (tk e' t) = t_prev (tk e t). Proof. intros (_ & _ & _ & K & _). apply K. Qed.
Lemma ext_st e e' t : ext e e' -> st e' t = st e t. Proof. intros [H _]. apply H. Qed.
Lemma ext_err e e' t : ext e e' -> t_err (tk e' t) = t_err (tk e t). Proof. intros [H _]. apply H. Qed.
Lemma ext_cd e e' t : ext e e' -> t_catch_done (tk e' t) = t_catch_done (tk e t). Proof. intros [H _]. apply H. Qed.
Lemma ext_tmo e e' t : ext e e' -> t_tmo_done (tk e' t) = t_tmo_done (tk e t). Proof. intros [H _]. apply H. Qed.
Lemma ext_start e e' t : ext e e' -> t_start (tk e' t) = t_start (tk e t). Proof. intros [H _]. apply H. Qed.

(* what set_state writes in place of its task *)
Definition written (s : TaskState) (c : Z) (x : task) : task :=
  {| t_nid := t_nid x; t_state := s; t_prev := t_prev x; t_err := if is s SError then t_err x else None;
     t_catch_done := t_catch_done x; t_catches := t_catches x;
     t_start := if is_created s then c else t_start x;
     t_end := if is_completed s then c else t_end x;
     t_tmo_done := t_tmo_done x; t_timeouts := t_timeouts x; t_evproc := t_evproc x; t_silent := t_silent x;
     t_hooks := t_hooks x; t_data := t_data x; t_exposed := t_exposed x |}.
Lemma tk_set_state site e i s t :
  tk (set_state site e i s) t = if Nat.eqb t i && Nat.ltb i (ntasks e) then written s (clock e + 1)%Z (tk e i) else tk e t.
Proof.
  unfold set_state, ntasks. destruct (Nat.ltb i (length (tasks e))) eqn:El; simpl.
  - destruct (is_completed s && Nat.eqb i 0); unfold tk; simpl; rewrite upd_nth, El; reflexivity.
  - now rewrite andb_false_r.
Qed.
Lemma set_state_keeps {A} (g : task -> A) site e i s t : (forall c x, g (written s c x) = g x) -> g (tk (set_state site e i s) t) = g (tk e t).
Proof. intros K. rewrite tk_set_state. destruct (Nat.eqb_spec t i); cbn [andb]; [subst|reflexivity]. destruct (Nat.ltb _ _); [apply K | reflexivity]. Qed.
Lemma set_state_oob site e i s : ntasks e <= i -> set_state site e i s = e.
Proof. intros H. unfold set_state. apply Nat.ltb_ge in H. fold (ntasks e). now rewrite H. Qed.
Lemma st_set_state_other site e i s t : t <> i -> st (set_state site e i s) t = st e t.
Proof. intros H. unfold st. rewrite tk_set_state. destruct (Nat.eqb_spec t i); [contradiction | reflexivity]. Qed.
Lemma st_set_state_same site e i s : st (set_state site e i s) i = s \/ (ntasks e <= i /\ st (set_state site e i s) i = st e i).
Proof.
  unfold st. rewrite tk_set_state, Nat.eqb_refl. simpl.
  destruct (Nat.ltb_spec i (ntasks e)); [left; reflexivity | right; auto].
Qed.
Lemma st_ss site e i s t : i < ntasks e -> st (set_state site e i s) t = if Nat.eqb t i then s else st e t.
Proof.
  intros Hi. unfold st. rewrite tk_set_state. apply Nat.ltb_lt in Hi. rewrite Hi, andb_true_r.
  destruct (Nat.eqb t i); reflexivity.
Qed.
Lemma st_set_state_in site e i s : i < ntasks e -> st (set_state site e i s) i = s.
Proof. intros H. now rewrite st_ss, Nat.eqb_refl. Qed.
Lemma trace_set_state site e i s : i < ntasks e ->
  trace (set_state site e i s) = trace e ++ [ETrans i (st e i) s (clock e + 1)%Z site].
Proof. intros H. unfold set_state. apply Nat.ltb_lt in H. fold (ntasks e). rewrite H. simpl. destruct (is_completed s && Nat.eqb i 0); reflexivity. Qed.

Lemma set_state_cases site e i s :
  set_state site e i s = e \/
  (i < ntasks e /\ trace (set_state site e i s) = trace e ++ [ETrans i (st e i) s (clock e + 1)%Z site]).
Proof.
  destruct (Nat.lt_ge_cases i (ntasks e)) as [H | H]; [right; split; [exact H | now apply trace_set_state] | left; now apply set_state_oob].
Qed.

Lemma ntasks_set_state site e i s : ntasks (set_state site e i s) = ntasks e.
Proof. unfold ntasks, set_state. destruct (negb _); [reflexivity|]. destruct (_ && _); simpl; apply upd_length. Qed.
Lemma W_set_state site e i s : W e -> W (set_state site e i s).
Proof. intros HW t Ht. rewrite ntasks_set_state in Ht. rewrite (set_state_keeps t_prev) by reflexivity. now apply HW. Qed.
Lemma queue_set_state site e i s : queue (set_state site e i s) = queue e.
Proof. unfold set_state. destruct (negb _); [reflexivity|]. destruct (_ && _); reflexivity. Qed.
Lemma nodes_set_state site e i s : nodes (set_state site e i s) = nodes e.
Proof. unfold set_state. destruct (negb _); [reflexivity|]. destruct (_ && _); reflexivity. Qed.
Lemma exn_set_state site e i s : exn (set_state site e i s) = exn e.
Proof. unfold set_state. destruct (negb _); [reflexivity|]. destruct (_ && _); reflexivity. Qed.
Lemma oof_set_state site e i s : oof (set_state site e i s) = oof e.
Proof. unfold set_state. destruct (negb _); [reflexivity|]. destruct (_ && _); reflexivity. Qed.
Lemma pstate_ss site e i s : i < ntasks e -> pstate (set_state site e i s) = if is_completed s && Nat.eqb i 0 then s else pstate e.
Proof. intros Hi. unfold set_state. apply Nat.ltb_lt in Hi. fold (ntasks e). rewrite Hi. cbn [negb]. destruct (_ && _); reflexivity. Qed.

Lemma parent_from_le e lvl : W e -> forall f q p, q < ntasks e -> parent_from f e lvl (Some q) = Some p -> p <= q.
Proof.
  intros HW. induction f as [|f IH]; intros q p Hq H; simpl in H; [discriminate|].
  destruct (Nat.ltb _ _); [inversion H; lia|].
  specialize (HW q Hq). destruct (t_prev (tk e q)) as [r|].
  - assert (p <= r) by (apply IH; [lia | exact H]). lia.
  - destruct f; discriminate.
Qed.
Lemma parent_lt e i p : W e -> i < ntasks e -> parent e i = Some p -> p < i.
Proof.
  intros HW Hi H. unfold parent in H. pose proof (HW i Hi) as Hp.
  destruct (t_prev (tk e i)) as [q|]; [|simpl in H; discriminate].
  assert (p <= q) by (eapply parent_from_le; eauto; lia). lia.
Qed.
Lemma children_lt e i j : In j (children e i) -> j < ntasks e.
Proof. unfold children. intros H. apply filter_In in H as [H _]. apply in_seq in H. unfold ntasks. lia. Qed.
Lemma siblings_ne e i j : In j (siblings e i) -> j <> i.
Proof.
  unfold siblings. destruct (parent e i); [|intros []]. intros H. apply filter_In in H as [_ H].
  apply negb_true_iff in H. now apply Nat.eqb_neq in H.
Qed.
Lemma children_prev e i j : In j (children e i) -> t_prev (tk e j) = Some i.
Proof.
  unfold children. intros H. apply filter_In in H as [_ H].
  destruct (t_prev (tk e j)) as [p|]; [|discriminate]. apply Nat.eqb_eq in H. now subst.
Qed.
Lemma children_gt e i j : W e -> In j (children e i) -> i < j.
Proof.
  intros HW H. pose proof (children_lt _ _ _ H) as Hj. specialize (HW j Hj). now rewrite (children_prev _ _ _ H) in HW.
Qed.
Lemma not_sibling_of_parent e i p : W e -> i < ntasks e -> parent e i = Some p -> ~ In i (siblings e p).
Proof.
  intros HW Hi Hp Hin. unfold siblings in Hin.
  destruct (parent e p) as [g|] eqn:Eg; [|exact Hin].
  apply filter_In in Hin as [Hin _].
  pose proof (children_prev _ _ _ Hin) as Hprev.
  assert (Hpi : p < i) by (eapply parent_lt; eauto).
  assert (Hgp : g < p) by (eapply parent_lt; eauto; lia).
  unfold parent in Hp. rewrite Hprev in Hp.
  assert (p <= g) by (eapply parent_from_le; eauto; lia). lia.
Qed.

(* Process::do_tick visits the tasks by start time: in some order, each once *)
Lemma insert_by_perm key x l : Permutation (insert_by key x l) (x :: l).
Proof.
  induction l as [|y l IH]; cbn [insert_by]; [reflexivity|]. destruct (Z.ltb _ _); [reflexivity|].
  eapply perm_trans; [apply perm_skip, IH | apply perm_swap].
Qed.
Lemma sort_by_perm key l : Permutation (sort_by key l) l.
Proof.
  unfold sort_by. rewrite <- (app_nil_r l) at 2. generalize (@nil nat).
  induction l as [|x l IH]; intros acc; cbn [fold_left app]; [reflexivity|].
  eapply perm_trans; [apply IH|]. eapply perm_trans; [apply Permutation_app_head, insert_by_perm | apply Permutation_sym, Permutation_middle].
Qed.
Lemma In_sort_by key l y : In y (sort_by key l) -> In y l.
Proof. apply Permutation_in, sort_by_perm. Qed.

(* the body of the fold in Engine.build_acts: every act appends its node, then edits one node (a child more for pn, or the
   next link of the act before) *)
Definition build_step (lvl pn : nat) (sq : bool) (acc : eng * nat) (sp : aspec) : eng * nat :=
  let '(ee, prev) := acc in
  let nid := length (nodes ee) in
  let ee1 := with_nodes ee (nodes ee ++ [mk_dyn lvl sp]) in
  if sq then
    if Nat.eqb (n_level (nd ee1 prev)) lvl then (set_next ee1 prev nid, nid) else (add_child ee1 pn nid, nid)
  else (add_child ee1 pn nid, prev).
Lemma build_acts_eq e pn acts sq :
  build_acts e pn acts sq = fst (fold_left (build_step (S (n_level (nd e pn))) pn sq) acts (e, pn)).
Proof. reflexivity. Qed.
Lemma build_step_nmod lvl pn sq ee prev sp :
  exists k f, fst (build_step lvl pn sq (ee, prev) sp) = nmod (with_nodes ee (nodes ee ++ [mk_dyn lvl sp])) k f.
Proof. unfold build_step. destruct sq; [destruct (Nat.eqb _ _)|]; eexists _, _; reflexivity. Qed.
Lemma build_acts_inv (P : nat -> eng -> Prop) e pn acts sq :
  P 0 e -> (forall n ee x k f, P n ee -> P (S n) (nmod (with_nodes ee (nodes ee ++ [x])) k f)) ->
  P (length acts) (build_acts e pn acts sq).
Proof.
  intros H0 Hs. rewrite build_acts_eq. apply (fold_left_count (fun n acc => P n (fst acc))); [|exact H0].
  intros n [ee prev] sp H. destruct (build_step_nmod (S (n_level (nd e pn))) pn sq ee prev sp) as (k & f & ->). now apply Hs.
Qed.
