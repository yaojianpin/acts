(* Engine properties that do not hold of the (validated) engine model: concrete workflows and
   histories, checked by evaluation.  Each witness replays on the implementation (the same cases are
   in corpus/engine-findings.jsonl and are listed in known_findings.txt).
   The vocabulary of the positive theorems is here too (stuck, open_under_completed, all_tasks, go, wf, irq): Progress and
   Wake import this file for it. *)
From Coq Require Import List ZArith Bool.
Import ListNotations.
From Acts.Gen Require Import GenState.
From Acts.Model Require Import Engine Tree.

Definition irq := ASpec UIrq 0 true None [].
Definition wf steps := {| w_id := 100; w_steps := steps; w_ins := []; w_outs := []; w_setup := [] |}.
Definition go (w : workflow) (ops : list op) : option eng :=
  match build_tree 30 w with Some t => Some (run t 1000 (ODrain :: ops)) | None => None end.
Definition all_tasks e := seq 0 (length (tasks e)).

(* C01: at rest and unfinished, with no interrupted act for a client to answer and no timeout rule for the clock to fire *)
Definition stuck (e : eng) : bool :=
  match queue e with [] => true | _ => false end && negb (oof e) && negb (is_completed (pstate e))
  && forallb (fun t => negb (is (st e t) SInterrupt) && match t_timeouts (tk e t) with [] => true | _ => false end) (all_tasks e).
(* C03: a task is completed while a task whose parent it is is still open *)
Definition open_under_completed (e : eng) : bool :=
  existsb (fun c => negb (is_completed (st e c)) &&
                    match parent e c with Some p => is (st e p) SCompleted | None => false end) (all_tasks e).
Definition msgs (e : eng) (t : nat) (s : TaskState) : nat :=
  length (filter (fun x => match x with EMsg t' s' _ _ => Nat.eqb t t' && is s s' | _ => false end) (trace e)).

(* two branches that need each other: both stay pending for ever *)
Definition w_cycle := wf [Step 1 None None [] [] [] [Branch 2 None false [3] []; Branch 3 None false [2] []] [] [] []].
Lemma stuck_needs_cycle : option_map stuck (go w_cycle []) = Some true.
Proof. vm_compute. reflexivity. Qed.
(* a step whose only child is a `created` hook act: answering the act wakes nobody *)
Definition w_hook := wf [Step 1 None None [] [] [ASpec UIrq 0 true (Some LCreated) []] [] [] [] []].
Lemma stuck_hook_act : option_map stuck (go w_hook [OAct 2 ANext []; ODrain]) = Some true.
Proof. vm_compute. reflexivity. Qed.
(* an act pushed into a step with two sequential acts: when the pushed act is submitted the step (and
   the process) completes while the second act is still waiting *)
Definition w_push := wf [Step 1 None None [] [] [] [] [Act 2 None irq [] [] None [] [] []; Act 3 None irq [] [] None [] [] []] [] []].
Definition ops_push := [OAct 1 (APush true) []; ODrain; OAct 2 ANext []; ODrain; OAct 3 ASubmit []; ODrain].
Lemma completed_over_open_act :
  option_map (fun e => (open_under_completed e, pstate e)) (go w_push ops_push) = Some (true, SCompleted).
Proof. vm_compute. reflexivity. Qed.
(* C08: a needs-branch resumed from inside the step's review: the step's completed message is sent twice *)
Definition w_twice := wf [Step 1 None None [] [] [] [Branch 2 None false [3] []; Branch 3 (Some BFalse) false [] []] [] [] []].
Lemma terminal_message_twice : option_map (fun e => msgs e 1 SCompleted) (go w_twice []) = Some 2.
Proof. vm_compute. reflexivity. Qed.

Lemma refute (w : workflow) (ops : list op) {A} (f : eng -> A) (a : A) :
  option_map f (go w ops) = Some a -> exists e, go w ops = Some e /\ f e = a.
Proof. destruct (go w ops) as [e|]; cbn [option_map]; intros H; [|discriminate]. exists e. split; [reflexivity | now inversion H]. Qed.
Lemma needs_cycle_refutes : exists w ops e, go w ops = Some e /\ stuck e = true.
Proof. exists w_cycle, []. exact (refute _ _ _ _ stuck_needs_cycle). Qed.
Lemma hook_act_refutes : exists w ops e, go w ops = Some e /\ stuck e = true.
Proof. exists w_hook, [OAct 2 ANext []; ODrain]. exact (refute _ _ _ _ stuck_hook_act). Qed.
Lemma completed_over_open_refutes : exists w ops e, go w ops = Some e /\ open_under_completed e = true /\ pstate e = SCompleted.
Proof.
  exists w_push, ops_push. destruct (refute _ _ _ _ completed_over_open_act) as (e & E & H). exists e. split; [exact E|].
  injection H as H1 H2. exact (conj H1 H2).
Qed.
Lemma message_twice_refutes : exists w ops e t, go w ops = Some e /\ msgs e t SCompleted = 2.
Proof. exists w_twice, []. destruct (refute _ _ _ _ terminal_message_twice) as (e & E & H). exists e, 1. auto. Qed.

(* C03, one terminal event: a workflow without steps completes in its own run (workflow.rs run, site 8), is emitted there and
   once more by Task::next, which emits every task it finds completed: the terminal process event is delivered twice *)
Definition terminal_events (e : eng) : nat :=
  length (filter (fun x => match x with EProc s _ => is_completed s | _ => false end) (trace e)).
Definition w_empty := wf [].
Lemma empty_workflow_two_terminal_events : option_map terminal_events (go w_empty []) = Some 2.
Proof. vm_compute. reflexivity. Qed.
Lemma terminal_twice_refutes : exists w ops e, go w ops = Some e /\ terminal_events e = 2.
Proof. exists w_empty, []. exact (refute _ _ _ _ empty_workflow_two_terminal_events). Qed.
