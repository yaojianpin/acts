(* List facts several proof files share: fold invariants, association lists read by first match, NoDup, permutations. *)
From Coq Require Import List Bool Permutation.
Import ListNotations.

Lemma fold_left_inv {A B} (P : A -> Prop) (g : A -> B -> A) l : (forall a b, P a -> P (g a b)) -> forall a, P a -> P (fold_left g l a).
Proof. intros Hg. induction l as [|b l IH]; intros a H; simpl; auto. Qed.
Lemma fold_left_inv_in {A B} (P : A -> Prop) (g : A -> B -> A) l : (forall a b, In b l -> P a -> P (g a b)) -> forall a, P a -> P (fold_left g l a).
Proof.
  induction l as [|b l IH]; intros Hg a H; simpl; auto.
  apply IH; [intros a' b' Hb; apply Hg; now right | apply Hg; [now left | exact H]].
Qed.
Lemma fold_left_count {A B} (P : nat -> A -> Prop) (g : A -> B -> A) l :
  (forall n a b, P n a -> P (S n) (g a b)) -> forall a, P 0 a -> P (length l) (fold_left g l a).
Proof.
  intros Hg. assert (H : forall n a, P n a -> P (n + length l) (fold_left g l a)); [|intros a; apply (H 0)].
  induction l as [|b l IH]; intros n a Hn; cbn [fold_left length]; [now rewrite <- plus_n_O|].
  rewrite <- plus_n_Sm. apply (IH (S n)), Hg, Hn.
Qed.
Lemma fold_left_preorder {A B} (R : A -> A -> Prop) (g : A -> B -> A) l :
  (forall a, R a a) -> (forall a b c, R a b -> R b c -> R a c) -> (forall a b, R a (g a b)) -> forall a, R a (fold_left g l a).
Proof. intros Hr Ht Hg a. apply (fold_left_inv (R a)); [intros x b H; exact (Ht _ _ _ H (Hg x b)) | apply Hr]. Qed.

Section Eqb.
Context {A : Type} (eqb : A -> A -> bool) (eqb_eq : forall x y, eqb x y = true <-> x = y).
Lemma existsb_eqb_In x l : existsb (eqb x) l = true <-> In x l.
Proof.
  rewrite existsb_exists. split; [intros (y & Hy & E); apply eqb_eq in E; now subst | intros H; exists x; split; [exact H | now apply eqb_eq]].
Qed.
(* every model has its own duplicate check of this shape *)
Lemma nodupb_NoDup (nd : list A -> bool) : (forall x r, nd (x :: r) = negb (existsb (eqb x) r) && nd r) -> forall l, nd l = true -> NoDup l.
Proof.
  intros Hnd. induction l as [|x r IH]; [constructor|]. rewrite Hnd, andb_true_iff, negb_true_iff. intros [H1 H2].
  constructor; [|auto]. intros Hin. apply existsb_eqb_In in Hin. congruence.
Qed.
End Eqb.

Lemma NoDup_fst_unique {K V} (l : list (K * V)) k v v' : NoDup (map fst l) -> In (k, v) l -> In (k, v') l -> v = v'.
Proof.
  assert (F : forall (l : list (K * V)) v, In (k, v) l -> In k (map fst l)) by (intros l0 v0 H; apply in_map_iff; now exists (k, v0)).
  induction l as [|[k0 v0] l IH]; simpl; intros W H1 H2; [tauto|]. inversion W as [|? ? Hn W']; subst.
  destruct H1 as [E1 | H1], H2 as [E2 | H2]; [congruence | | | auto].
  - inversion E1; subst. destruct Hn. eapply F; eauto.
  - inversion E2; subst. destruct Hn. eapply F; eauto.
Qed.
Lemma NoDup_snoc {A} (l : list A) x : NoDup l -> ~ In x l -> NoDup (l ++ [x]).
Proof.
  intros Hn Hx. apply NoDup_rev in Hn. rewrite <- (rev_involutive (l ++ [x])), rev_unit. apply NoDup_rev.
  constructor; [now rewrite <- in_rev | exact Hn].
Qed.
Lemma nth_map_lt {A B} (f : A -> B) l d d' p : p < length l -> nth p (map f l) d' = f (nth p l d).
Proof. intros H. rewrite (nth_indep _ d' (f d)) by (now rewrite map_length). apply map_nth. Qed.
(* the queue as Engine.sched_pick reorders it *)
Lemma pick_perm {A} (l : list A) : forall k i, nth_error l k = Some i -> Permutation l (i :: firstn k l ++ skipn (S k) l).
Proof.
  induction l as [|x l IH]; intros k i Hk; destruct k as [|k]; cbn in Hk; try discriminate.
  - inversion Hk; subst. cbn. apply Permutation_refl.
  - cbn [firstn skipn app]. eapply Permutation_trans; [apply perm_skip, (IH k i Hk)|]. apply perm_swap.
Qed.

(* Association lists read by first match.  Every model has its own (Engine.vget / vset, Chan.register, StoreQ.db_find,
   Fields.assoc ...), with the key before or after the list: `find` and `put` are given by their equations, which hold
   by computation. *)
Section Assoc.
Context {K V : Type} (eqb : K -> K -> bool) (eqb_spec : forall x y, reflect (x = y) (eqb x y)).
Context (find : K -> list (K * V) -> option V) (put : list (K * V) -> K -> V -> list (K * V)).
Hypothesis find_nil : forall k, find k [] = None.
Hypothesis find_cons : forall k k' v t, find k ((k', v) :: t) = if eqb k k' then Some v else find k t.
(* a write in place, at the end when the key is new *)
Hypothesis put_nil : forall k v, put [] k v = [(k, v)].
Hypothesis put_cons : forall k v k' y t, put ((k', y) :: t) k v = if eqb k k' then (k, v) :: t else (k', y) :: put t k v.
Lemma find_put l k v j : find j (put l k v) = if eqb j k then Some v else find j l.
Proof.
  induction l as [|(k', y) t IH]; [now rewrite put_nil, !find_cons, find_nil|]. rewrite put_cons, find_cons.
  destruct (eqb_spec k k') as [<-|N]; rewrite find_cons; [now destruct (eqb j k)|].
  rewrite IH. destruct (eqb_spec j k'), (eqb_spec j k); congruence.
Qed.
Lemma find_del l k j : find j (filter (fun c => negb (eqb (fst c) k)) l) = if eqb j k then None else find j l.
Proof.
  induction l as [|(k', v) t IH]; simpl; [rewrite find_nil; now destruct (eqb j k)|]. rewrite find_cons.
  destruct (eqb_spec k' k) as [->|N]; simpl; rewrite ?find_cons, IH; [now destruct (eqb j k)|].
  destruct (eqb_spec j k'), (eqb_spec j k); congruence.
Qed.
Lemma find_In l k v : NoDup (map fst l) -> (find k l = Some v <-> In (k, v) l).
Proof.
  induction l as [|(k', v') t IH]; simpl; intros Hn; [rewrite find_nil; split; [discriminate | intros []]|].
  inversion Hn as [|? ? Hni Hn']; subst. rewrite find_cons. destruct (eqb_spec k k') as [->|N].
  - split; [intros [= ->]; now left | intros [[= ->] | Hin]; [reflexivity|]]. destruct Hni. exact (in_map fst _ _ Hin).
  - rewrite (IH Hn'). split; [now right | intros [[= -> ->] | Hin]; [contradiction | exact Hin]].
Qed.
End Assoc.
Lemma NoDup_map_filter {A B} (g : A -> B) (f : A -> bool) l : NoDup (map g l) -> NoDup (map g (filter f l)).
Proof.
  induction l as [|c t IH]; simpl; intros H; [constructor|]. inversion H as [|? ? Hni Hn]; subst.
  destruct (f c); simpl; [|auto]. constructor; [|auto].
  intros Hin. apply Hni. apply in_map_iff in Hin as (y & E & Hy). apply filter_In in Hy as [Hy _]. apply in_map_iff; eauto.
Qed.

(* Writing one position of a list; out of range nothing is written.  The models' own copies (Engine.upd, Retry.rupd)
   are this, by conversion. *)
Fixpoint lupd {A} (l : list A) (i : nat) (x : A) : list A :=
  match l, i with
  | [], _ => []
  | _ :: t, O => x :: t
  | h :: t, S i => h :: lupd t i x
  end.
Lemma lupd_length {A} (l : list A) i x : length (lupd l i x) = length l.
Proof. revert i; induction l as [|h t IH]; intros [|i]; simpl; auto. Qed.
Lemma lupd_nth {A} (l : list A) i j x d : nth j (lupd l i x) d = if Nat.eqb j i && Nat.ltb i (length l) then x else nth j l d.
Proof.
  revert i j; induction l as [|h t IH]; intros [|i] [|j]; simpl; auto.
  - destruct (Nat.eqb j i); reflexivity.
  - rewrite IH. change (Nat.ltb (S i) (S (length t))) with (Nat.ltb i (length t)). reflexivity.
Qed.

(* `run` is given by its two equations: every model with outputs has its own run function of this shape *)
Lemma run_inv {S O R} (step : S -> O -> S * R) (run : S -> list O -> S * list R) (P : S -> Prop) :
  (forall s o r, run s (o :: r) = let '(s1, d) := step s o in let '(s2, ds) := run s1 r in (s2, d :: ds)) ->
  (forall s, run s [] = (s, [])) -> (forall s o, P s -> P (fst (step s o))) -> forall ops s, P s -> P (fst (run s ops)).
Proof.
  intros Hc Hn Hs. induction ops as [|o ops IH]; intros s H; [now rewrite Hn|].
  rewrite Hc. specialize (Hs s o H). destruct (step s o) as [s1 d]. specialize (IH s1 Hs). now destruct (run s1 ops).
Qed.

Lemma fold_left_id {A B} (g : A -> B -> A) l a : (forall b, In b l -> g a b = a) -> fold_left g l a = a.
Proof. intros H. apply (fold_left_inv_in (fun x => x = a)); [intros x b Hb ->; now apply H | reflexivity]. Qed.
Lemma existsb_ext_l {A} (f g : A -> bool) l : (forall x, f x = g x) -> existsb f l = existsb g l.
Proof. intros H. induction l as [|x l IH]; [reflexivity|]. cbn [existsb]. now rewrite H, IH. Qed.
Lemma forallb_ext_l {A} (f g : A -> bool) l : (forall x, f x = g x) -> forallb f l = forallb g l.
Proof. intros H. induction l as [|x l IH]; [reflexivity|]. cbn [forallb]. now rewrite H, IH. Qed.
