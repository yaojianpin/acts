(* Task::is_ready: the model's branch release is the source's (gen/GenReady.v), read through the regenerated state predicates *)
From Coq Require Import List Arith Bool.
Import ListNotations.
From Acts.Gen Require Import GenState GenReady.
From Acts.Model Require Import Engine.
From Acts.Proofs Require Import ListFacts StatePred.

Definition ready_of_source (e : eng) (i : nat) : bool * eng :=
  let n := tnode e i in
  match n_kind n with
  | KBranch =>
      let sib := siblings e i in
      if negb (Nat.eqb (List.length (n_needs n)) 0) then
        (existsb (fun j => state_pred ready_needs_pred (st e j) && existsb (Nat.eqb (n_id (tnode e j))) (n_needs n)) sib, e)
      else if n_else n then
        if forallb (fun j => state_pred ready_else_all (st e j)) sib then (true, e)
        else if existsb (fun j => existsb (fun p => state_pred p (st e j)) ready_else_any) sib
             then (false, set_state 9 e i ready_else_write)
             else (false, e)
      else (false, e)
  | _ => (true, e)
  end.
Lemma ready_match e i : is_ready e i = ready_of_source e i.
Proof.
  unfold is_ready, ready_of_source. cbv zeta. destruct (n_kind (tnode e i)); try reflexivity.
  destruct (negb (Nat.eqb (List.length (n_needs (tnode e i))) 0)).
  - reflexivity.
  - destruct (n_else (tnode e i)); [|reflexivity].
    rewrite (forallb_ext_l (fun j => is (st e j) SSkipped) (fun j => state_pred ready_else_all (st e j))) by (intros j; destruct (st e j); reflexivity).
    rewrite (existsb_ext_l (fun j => match st e j with SError | SCompleted | SAborted => true | _ => false end)
                           (fun j => existsb (fun p => state_pred p (st e j)) ready_else_any)) by (intros j; destruct (st e j); reflexivity).
    reflexivity.
Qed.
