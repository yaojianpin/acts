(* model/Retry.v, C09.  A closed message (acknowledged, or its task acted on) is in no tick's selection, so no operation
   rewrites its row or delivers it again; `inv` is what every operation keeps of the rows and of the deliveries. *)
From Coq Require Import List ZArith Bool Lia.
Import ListNotations.
From Acts.Model Require Import Retry.
From Acts.Proofs Require Import ListFacts.
Local Open Scope Z_scope.

Definition rowi s i := nth i (rows s) drow.
Definition closed (r : row) : bool := match r_status r with Acked | Completed => true | _ => false end.
Definition cnt (i : nat) (l : list (nat * Z)) : nat := length (filter (fun p => Nat.eqb (fst p) i) l).

(* rupd is ListFacts.lupd, read at this name *)
Lemma rupd_length {A} (l : list A) i x : length (rupd l i x) = length l.
Proof. exact (lupd_length l i x). Qed.
Lemma rupd_nth {A} (l : list A) i j x d : nth j (rupd l i x) d = if Nat.eqb j i && Nat.ltb i (length l) then x else nth j l d.
Proof. exact (lupd_nth l i j x d). Qed.
Lemma in_rupd {A} (l : list A) i x y : In y (rupd l i x) -> y = x \/ In y l.
Proof.
  revert i; induction l as [|h t IH]; intros [|i]; simpl; try tauto.
  - intros [<- | H]; auto.
  - intros [<- | H]; auto. destruct (IH _ H); auto.
Qed.
Lemma cnt_app i l x : cnt i (l ++ [x]) = (cnt i l + (if Nat.eqb (fst x) i then 1 else 0))%nat.
Proof. unfold cnt. rewrite filter_app, app_length; simpl. destruct (Nat.eqb _ _); simpl; lia. Qed.

Lemma tick_body_other now max s i j : i <> j ->
  rowi (tick_body now max s i) j = rowi s j /\ cnt j (delivered (tick_body now max s i)) = cnt j (delivered s).
Proof.
  intros H; unfold tick_body. destruct (nth_error (rows s) i) as [r|]; [|auto]. apply Nat.eqb_neq in H.
  destruct (Z.ltb _ _); unfold rowi; simpl; rewrite rupd_nth, (Nat.eqb_sym j i), H; [|auto].
  split; [reflexivity|]. rewrite cnt_app; simpl. rewrite H. lia.
Qed.
Lemma tick_fold_other now max l s j : ~ In j l ->
  rowi (fold_left (tick_body now max) l s) j = rowi s j /\
  cnt j (delivered (fold_left (tick_body now max) l s)) = cnt j (delivered s).
Proof.
  intros H. apply (fold_left_inv_in (fun s' => rowi s' j = rowi s j /\ cnt j (delivered s') = cnt j (delivered s))); [|auto].
  intros s' i Hi [H1 H2]. destruct (tick_body_other now max s' i j) as [H3 H4]; [intros ->; contradiction|]. split; congruence.
Qed.
Lemma selected_created s now interval j : In j (selected s now interval) -> r_status (rowi s j) = Created.
Proof.
  unfold selected. rewrite filter_In. intros [_ H]. apply andb_true_iff in H as [H _].
  apply andb_true_iff in H as [_ H]. unfold rowi. now apply internal_status_dec_bl in H.
Qed.

Lemma closed_lt s i : closed (rowi s i) = true -> (i < length (rows s))%nat.
Proof.
  intros H. destruct (Nat.lt_ge_cases i (length (rows s))) as [|Hge]; [assumption|].
  unfold rowi in H. rewrite nth_overflow in H by assumption. discriminate.
Qed.
Lemma closed_step interval max s o i :
  closed (rowi s i) = true ->
  closed (rowi (rstep interval max s o) i) = true /\
  cnt i (delivered (rstep interval max s o)) = cnt i (delivered s).
Proof.
  intros Hc. pose proof (closed_lt s i Hc) as Hlt. destruct o as [t | now | k now | t now | now | ]; simpl.
  4-6: unfold rowi in *; simpl; (split; [|reflexivity]); rewrite (nth_map_lt _ _ drow) by exact Hlt.
  - unfold op_emit, rowi in *; simpl. rewrite cnt_app, app_nth1 by assumption; simpl.
    destruct (Nat.eqb_spec (length (rows s)) i); [lia | split; [exact Hc | lia]].
  - unfold op_tick.
    assert (Hn : ~ In i (selected s now interval)).
    { intros Hin. apply selected_created in Hin. unfold closed in Hc. rewrite Hin in Hc. discriminate. }
    destruct (tick_fold_other now max _ s i Hn) as [H1 H2]. rewrite H1, H2. auto.
  - unfold op_ack. destruct (nth_error (rows s) k) as [r|]; [|auto].
    destruct (r_live r); [|auto]. unfold rowi; simpl. split; [|auto].
    rewrite rupd_nth. destruct (Nat.eqb i k && _); [reflexivity | exact Hc].
  - destruct (r_live _ && _); auto.
  - destruct (r_live (nth i (rows s) drow) && status_beq (r_status (nth i (rows s) drow)) Error) eqn:E; auto.
    apply andb_true_iff in E as [_ E]. apply internal_status_dec_bl in E. unfold closed in Hc. rewrite E in Hc. discriminate.
  - destruct (r_live _ && _); auto.
Qed.

Theorem ack_silent interval max ops1 ops2 i :
  let s1 := fold_left (rstep interval max) ops1 rinit in
  closed (rowi s1 i) = true ->
  let s2 := fold_left (rstep interval max) ops2 s1 in
  closed (rowi s2 i) = true /\ cnt i (delivered s2) = cnt i (delivered s1).
Proof.
  intros s1 Hc s2. apply (fold_left_inv (fun s => closed (rowi s i) = true /\ cnt i (delivered s) = cnt i (delivered s1))); [|auto].
  intros s o [H1 H2]. destruct (closed_step interval max s o i H1) as [H3 H4]. split; [exact H3 | congruence].
Qed.

Definition bounded (max : Z) (s : rst) : Prop :=
  (forall r, In r (rows s) -> 0 <= r_retry r <= Z.max 0 max) /\
  (forall p, In p (delivered s) -> 0 <= snd p <= Z.max 0 max).
(* the record exists before the handler runs *)
Definition stored (s : rst) : Prop := forall p, In p (delivered s) -> (fst p < length (rows s))%nat.

(* Both are kept by the two things an operation does: it replaces the rows by as many or more, with retry counts in
   range, and it hands a stored message to the handler. *)
Definition inv (max : Z) (s : rst) : Prop := bounded max s /\ stored s.
Lemma inv_rows max s rs : inv max s -> (length (rows s) <= length rs)%nat ->
  (forall x, In x rs -> 0 <= r_retry x <= Z.max 0 max) -> inv max (with_rows s rs).
Proof. intros [[B1 B2] S] Hl Hr. split; [now split|]. intros p Hp. specialize (S p Hp). simpl. lia. Qed.
Lemma inv_deliver max s i r : inv max s -> (i < length (rows s))%nat -> 0 <= r <= Z.max 0 max -> inv max (deliver s i r).
Proof. intros [[B1 B2] S] Hi Hr. split; [split; [exact B1|]|]; intros p Hp; apply in_app_or in Hp as [Hp | [<- | []]]; auto. Qed.
Lemma inv_rupd max s i r : inv max s -> 0 <= r_retry r <= Z.max 0 max -> inv max (with_rows s (rupd (rows s) i r)).
Proof.
  intros I Hr. apply inv_rows; [exact I | now rewrite rupd_length|].
  intros x Hx. apply in_rupd in Hx as [->|Hx]; [exact Hr | now apply I].
Qed.
Lemma inv_tick_body now max s i : inv max s -> inv max (tick_body now max s i).
Proof.
  intros I; unfold tick_body. destruct (nth_error (rows s) i) as [r|] eqn:E; [|exact I].
  assert (Hr : 0 <= r_retry r <= Z.max 0 max) by (apply I; eapply nth_error_In; eauto).
  assert (Hi : (i < length (rows s))%nat) by (apply nth_error_Some; congruence).
  destruct (Z.ltb_spec (r_retry r) max); [apply inv_deliver; [|simpl; now rewrite rupd_length | lia]|];
    (apply inv_rupd; [exact I | simpl; lia]).
Qed.
Lemma inv_run interval max ops : inv max (rrun interval max ops).
Proof.
  unfold rrun. apply (fold_left_inv (inv max)); [|split; [split|]; intros ? []].
  intros s o I. pose proof (proj1 (proj1 I)) as B1. destruct o as [t | now | k now | t now | now | ]; simpl.
  (* action, redo, clear: a row is kept, or rewritten with its own retry count or 0 *)
  4-6: apply inv_rows; [exact I | now rewrite map_length|]; intros y Hy; apply in_map_iff in Hy as (x & <- & Hx);
       specialize (B1 x Hx); destruct (r_live x && _); simpl; lia.
  - apply inv_deliver; [apply inv_rows; [exact I | rewrite app_length; lia|] | simpl; rewrite app_length; simpl; lia | lia].
    intros x Hx. apply in_app_or in Hx as [Hx|[<-|[]]]; [now apply B1 | simpl; lia].
  - apply (fold_left_inv (inv max)); [|exact I]. intros s0 i. apply inv_tick_body.
  - unfold op_ack. destruct (nth_error (rows s) k) as [r|] eqn:E; auto. destruct (r_live r); auto.
    apply inv_rupd; [exact I|]. simpl. apply B1. eapply nth_error_In; eauto.
Qed.
Theorem retries_bounded interval max ops : bounded max (rrun interval max ops).
Proof. apply inv_run. Qed.
Theorem stored_before_delivery interval max ops : stored (rrun interval max ops).
Proof. apply inv_run. Qed.

Lemma error_silent s now interval max i :
  r_status (rowi s i) = Error ->
  rowi (op_tick s now interval max) i = rowi s i /\ cnt i (delivered (op_tick s now interval max)) = cnt i (delivered s).
Proof.
  intros He. unfold op_tick. apply tick_fold_other. intros Hin. apply selected_created in Hin. congruence.
Qed.
(* the message delivered again is the same one: its id and content are its position i *)
Lemma tick_body_increments now max s i r :
  nth_error (rows s) i = Some r -> r_retry r < max ->
  delivered (tick_body now max s i) = delivered s ++ [(i, r_retry r + 1)] /\
  r_retry (rowi (tick_body now max s i) i) = r_retry r + 1 /\ r_tid (rowi (tick_body now max s i) i) = r_tid r /\
  r_status (rowi (tick_body now max s i) i) = r_status r.
Proof.
  intros E Hlt. unfold tick_body. rewrite E. apply Z.ltb_lt in Hlt. rewrite Hlt. unfold rowi; simpl.
  assert (Hi : Nat.ltb i (length (rows s)) = true) by (apply Nat.ltb_lt, nth_error_Some; congruence).
  rewrite rupd_nth, Nat.eqb_refl, Hi. simpl. auto.
Qed.
Lemma tick_body_limit now max s i r :
  nth_error (rows s) i = Some r -> max <= r_retry r ->
  delivered (tick_body now max s i) = delivered s /\ r_status (rowi (tick_body now max s i) i) = Error.
Proof.
  intros E Hge. unfold tick_body. rewrite E. assert (Hf : Z.ltb (r_retry r) max = false) by (apply Z.ltb_ge; lia). rewrite Hf.
  unfold rowi; simpl. assert (Hi : Nat.ltb i (length (rows s)) = true) by (apply Nat.ltb_lt, nth_error_Some; congruence).
  rewrite rupd_nth, Nat.eqb_refl, Hi. auto.
Qed.
