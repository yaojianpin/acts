(* The trace is a faithful log: replaying its state writes from `none` gives, at every position, the state
   each task has at that moment -- so every write's `old` state is the task's state just before it, every
   message reports the state its task has when it is sent (never pending or running), and the replay of the
   whole trace is the task states of the engine. *)
From Coq Require Import List ZArith Bool.
Import ListNotations.
From Acts.Gen Require Import GenState.
From Acts.Model Require Import Engine.
From Acts.Proofs Require Import EngineBasics.

Definition cstep (c : nat -> TaskState) (x : ev) : nat -> TaskState :=
  match x with ETrans t _ n _ _ => fun t' => if Nat.eqb t' t then n else c t' | _ => c end.
Definition evok (c : nat -> TaskState) (x : ev) : bool :=
  match x with
  | ETrans t o _ _ _ => is o (c t)
  | EMsg t s _ _ => is s (c t) && negb (is s SPending) && negb (is s SRunning)
  | ENew _ _ (Some p) _ VNext => is_completed (c p)
  | _ => true
  end.
Fixpoint logok (c : nat -> TaskState) (tr : list ev) : bool :=
  match tr with [] => true | x :: r => evok c x && logok (cstep c x) r end.
Fixpoint cur (c : nat -> TaskState) (tr : list ev) : nat -> TaskState :=
  match tr with [] => c | x :: r => cur (cstep c x) r end.
Definition c_none : nat -> TaskState := fun _ => SNone.
Definition L (e : eng) : Prop := logok c_none (trace e) = true /\ forall t, cur c_none (trace e) t = st e t.

Lemma cstep_ext c c' x : (forall t, c t = c' t) -> forall t, cstep c x t = cstep c' x t.
Proof. intros H t. destruct x; simpl; auto. now rewrite H. Qed.
Lemma evok_ext c c' x : (forall t, c t = c' t) -> evok c x = evok c' x.
Proof. intros H. destruct x as [? ? [p|] ? [|] | | | | | | |]; simpl; auto; now rewrite H. Qed.
Lemma logok_ext tr : forall c c', (forall t, c t = c' t) -> logok c tr = logok c' tr.
Proof.
  induction tr as [|x tr IH]; simpl; auto. intros c c' H. rewrite (evok_ext c c' x H).
  now rewrite (IH _ _ (cstep_ext c c' x H)).
Qed.
Lemma cur_ext tr : forall c c', (forall t, c t = c' t) -> forall t, cur c tr t = cur c' tr t.
Proof. induction tr as [|x tr IH]; simpl; auto. intros c c' H. apply IH. now apply cstep_ext. Qed.
Lemma logok_app a : forall c b, logok c (a ++ b) = logok c a && logok (cur c a) b.
Proof. induction a as [|x a IH]; simpl; auto. intros c b. now rewrite IH, andb_assoc. Qed.
Lemma cur_app a : forall c b t, cur c (a ++ b) t = cur (cur c a) b t.
Proof. induction a as [|x a IH]; simpl; auto. Qed.

Lemma quiet_log e l : forall c, (forall t, c t = st e t) ->
  forallb (fun x => negb (is_trans x)) l = true -> forallb (msg_ok e) l = true ->
  logok c l = true /\ forall t, cur c l t = c t.
Proof.
  induction l as [|x l IH]; simpl; auto. intros c Hc F M.
  apply andb_true_iff in F as [F1 F2]. apply andb_true_iff in M as [M1 M2].
  assert (Hs : forall t, cstep c x t = c t) by (destruct x; simpl in *; auto; discriminate).
  destruct (IH (cstep c x)) as [I1 I2]; auto; [intros t; now rewrite Hs|].
  split.
  - rewrite I1, andb_true_r. destruct x as [? ? [p|] ? [|] | | | | | | |]; simpl in *; auto; try discriminate; now rewrite Hc.
  - intros t. now rewrite I2.
Qed.

Lemma L_ext e e' : ext e e' -> L e -> L e'.
Proof.
  intros X (H1 & H2). pose proof X as (_ & (l & Tl & Fl & Ml) & _).
  destruct (quiet_log e l (cur c_none (trace e)) H2 Fl Ml) as [Q1 Q2]. split.
  - rewrite Tl, logok_app, H1, Q1. reflexivity.
  - intros t. rewrite Tl, cur_app, Q2, H2. symmetry. apply (ext_st _ _ t X).
Qed.
Lemma L_set_state site e i s : L e -> L (set_state site e i s).
Proof.
  intros (H1 & H2).
  destruct (set_state_cases site e i s) as [-> | [Hlt Tr]]; [now split|].
  split.
  - rewrite Tr, logok_app, H1. simpl. now rewrite H2, is_refl.
  - intros t. rewrite Tr, cur_app. simpl.
    rewrite st_ss by exact Hlt. destruct (Nat.eqb t i); [reflexivity | apply H2].
Qed.
Lemma L_tmod e i f : (forall x, t_state (f x) = t_state x) -> L e -> L (tmod e i f).
Proof.
  intros K (H1 & H2). split; [exact H1|]. intros t. rewrite st_tmod by exact K. apply H2.
Qed.
Lemma L_add_fire e t on now start limit : L e -> L (add_ev e (EFire t on now start limit)).
Proof.
  intros (H1 & H2). split; cbn [trace add_ev with_trace].
  - now rewrite logok_app, H1.
  - intros t'. rewrite cur_app. apply H2.
Qed.

Lemma logok_at c l1 x l2 : logok c (l1 ++ x :: l2) = true -> evok (cur c l1) x = true.
Proof. rewrite logok_app. simpl. intros H. apply andb_true_iff in H as [_ H]. now apply andb_true_iff in H as [H _]. Qed.
