(* model/Serde.v over gen/GenModelFields.v, C20 (and the rm_model part of C17): a model struct is decoded field by field as
   it was encoded, given `struct_ok` of its field table, decided at the generated tables; deploy counts versions; no run
   leaves two start events under one (model, act), counted by `has_event`. *)
From Coq Require Import List String Bool Arith Lia.
Import ListNotations.
From Acts.Gen Require Import GenModelFields.
From Acts.Model Require Import Serde.
From Acts.Proofs Require Import ListFacts.
Open Scope string_scope.

Section Rec.
Variable V : Type.
Variable dflt : string -> V.

Lemma snodup_NoDup l : snodup l = true -> NoDup l.
Proof. apply (nodupb_NoDup String.eqb String.eqb_eq). reflexivity. Qed.
Lemma sassoc_In k v (l : list (string * V)) : NoDup (map fst l) -> In (k, v) l -> sassoc V k l = Some v.
Proof. intros Hn. now apply (find_In String.eqb String.eqb_spec (sassoc V)). Qed.
Theorem roundtrip s (r : string -> V) f :
  struct_ok s = true -> In f (s_fields s) -> decode_field V dflt (encode V s r) f = Some (r (f_name f)).
Proof.
  unfold struct_ok. intros [H1%snodup_NoDup H2]%andb_true_iff Hf. rewrite forallb_forall in H2.
  unfold decode_field, encode. rewrite (sassoc_In _ (r (f_name f))); [reflexivity | |].
  - rewrite map_map. now apply (NoDup_map_filter ser_name).
  - apply (in_map (fun g => (ser_name g, r (f_name g)))), filter_In. auto.
Qed.
End Rec.

Lemma all_structs_ok : forallb struct_ok model_structs = true.
Proof. vm_compute. reflexivity. Qed.
Theorem model_roundtrip (V : Type) (dflt : string -> V) s (r : string -> V) f :
  In s model_structs -> In f (s_fields s) -> decode_field V dflt (encode V s r) f = Some (r (f_name f)).
Proof.
  intros Hs Hf. apply roundtrip; auto. pose proof all_structs_ok as A. rewrite forallb_forall in A. now apply A.
Qed.

Lemma mfind_mput s r j : mfind (mput s r) j = if Nat.eqb (m_id r) j then Some r else mfind s j.
Proof.
  induction s as [|x t IH]; simpl; [reflexivity|].
  destruct (Nat.eqb_spec (m_id x) (m_id r)) as [E|N]; simpl.
  - rewrite E. now destruct (Nat.eqb (m_id r) j).
  - rewrite IH. destruct (Nat.eqb_spec (m_id x) j), (Nat.eqb_spec (m_id r) j); congruence.
Qed.
Definition ver_of (s : mstore) (id : nat) : nat := match mfind s id with Some r => m_ver r | None => 0 end.
Lemma mfind_deploy s id text j :
  mfind (deploy s id text) j = if Nat.eqb id j then Some {| m_id := id; m_ver := S (ver_of s id); m_text := text |} else mfind s j.
Proof. unfold deploy, ver_of. destruct (mfind s id); apply mfind_mput. Qed.
Lemma ver_of_deploys id ts s : ver_of (fold_left (fun st t => deploy st id t) ts s) id = ver_of s id + List.length ts.
Proof.
  apply (fold_left_count (fun n st => ver_of st id = ver_of s id + n)); [|lia].
  intros n st t H. unfold ver_of at 1. rewrite mfind_deploy, Nat.eqb_refl. cbn. lia.
Qed.
Theorem deploy_n_times s id t0 ts : mfind s id = None ->
  exists r, mfind (fold_left (fun st t => deploy st id t) (t0 :: ts) s) id = Some r /\ m_ver r = List.length (t0 :: ts) /\ m_text r = last (t0 :: ts) 0.
Proof.
  intros Hn. destruct (exists_last (l := t0 :: ts)) as (ts' & t' & ->); [discriminate|]. rewrite fold_left_app. cbn [fold_left].
  rewrite mfind_deploy, Nat.eqb_refl. eexists. split; [reflexivity|]. cbn [m_ver m_text].
  rewrite ver_of_deploys, app_length, last_last. unfold ver_of. rewrite Hn. cbn. split; [lia | reflexivity].
Qed.

Definition has_event (evs : list erow) (mid a : nat) : nat := List.length (filter (fun e => ekey e mid a) evs).
Definition ev_unique (evs : list erow) : Prop := forall mid a, has_event evs mid a <= 1.
(* the `if` is the row eput writes in place of e *)
Lemma ekey_eput_row e mid a ver mid' a' : ekey e mid a = true ->
  ekey (if Nat.eqb (e_ver e) ver then e else {| e_mid := mid; e_act := a; e_ver := ver |}) mid' a' = ekey e mid' a'.
Proof.
  intros E. destruct (Nat.eqb (e_ver e) ver); [reflexivity|]. unfold ekey in *.
  apply andb_true_iff in E as [E1 E2]. apply Nat.eqb_eq in E1, E2. cbn. now rewrite E1, E2.
Qed.
Lemma ekey_other e mid a mid' a' ver : (mid', a') <> (mid, a) -> ekey e mid' a' = true ->
  ekey (if ekey e mid a then (if Nat.eqb (e_ver e) ver then e else {| e_mid := mid; e_act := a; e_ver := ver |}) else e) mid' a' = true.
Proof. intros _ Hk. destruct (ekey e mid a) eqn:E; [|exact Hk]. now rewrite ekey_eput_row. Qed.
Lemma has_event_eput evs mid a ver mid' a' :
  has_event (eput evs mid a ver) mid' a' =
  has_event evs mid' a' + match has_event evs mid a with
                          | 0 => if ekey {| e_mid := mid; e_act := a; e_ver := ver |} mid' a' then 1 else 0
                          | S _ => 0
                          end.
Proof.
  unfold has_event. induction evs as [|e t IH]; cbn [eput filter List.length].
  - now destruct (ekey _ mid' a').
  - destruct (ekey e mid a) eqn:E; cbn [filter].
    + rewrite (ekey_eput_row e mid a ver mid' a' E). destruct (ekey e mid' a'); cbn [List.length]; lia.
    + destruct (ekey e mid' a'); cbn [List.length]; rewrite IH; lia.
Qed.
Lemma ekey_refl mid a ver : ekey {| e_mid := mid; e_act := a; e_ver := ver |} mid a = true.
Proof. unfold ekey; cbn. now rewrite !Nat.eqb_refl. Qed.
Lemma eput_unique evs mid a ver : ev_unique evs -> ev_unique (eput evs mid a ver).
Proof.
  intros H mid' a'. rewrite has_event_eput. pose proof (H mid' a').
  destruct (has_event evs mid a) eqn:E0; [|lia]. destruct (ekey _ mid' a') eqn:K; [|lia].
  unfold ekey in K; cbn in K. apply andb_true_iff in K as [K1 K2]. apply Nat.eqb_eq in K1, K2. subst. lia.
Qed.
Lemma eputs_unique mid ver on : forall evs, ev_unique evs -> ev_unique (fold_left (fun evs a => eput evs mid a ver) on evs).
Proof. apply (fold_left_inv ev_unique). intros evs a. apply eput_unique. Qed.
(* no put lowers a count, so the row of an act put at any point of the fold is still there at its end *)
Lemma eputs_has mid ver on : forall evs a, ev_unique evs -> In a on -> has_event (fold_left (fun evs a => eput evs mid a ver) on evs) mid a = 1.
Proof.
  intros evs a Hu Hin. apply Nat.le_antisymm; [now apply eputs_unique|]. clear Hu. revert evs.
  induction on as [|b on IH]; intros evs; [destruct Hin|]. cbn [fold_left]. destruct Hin as [->|Hin]; [|now apply IH].
  apply (fold_left_inv (fun evs => 1 <= has_event evs mid a)); [intros evs' c H; rewrite has_event_eput; lia|].
  rewrite has_event_eput, ekey_refl. destruct (has_event evs mid a); lia.
Qed.
Lemma filter_unique evs g : ev_unique evs -> ev_unique (filter g evs).
Proof.
  intros H mid a. specialize (H mid a). unfold has_event in *.
  assert (L : forall l, List.length (filter (fun e => ekey e mid a) (filter g l)) <= List.length (filter (fun e => ekey e mid a) l)).
  { induction l as [|e l IHl]; cbn [filter]; auto. destruct (g e); cbn [filter]; destruct (ekey e mid a); cbn [List.length]; lia. }
  specialize (L evs). lia.
Qed.
Theorem events_unique ops : ev_unique (ds_events (drun ops dinit)).
Proof.
  unfold drun. apply (fold_left_inv (fun st => ev_unique (ds_events st))); [|intros mid a; cbn; lia].
  intros st o H. destruct o as [d|id|id]; cbn [dstep fst]; auto.
  - unfold ddeploy. destruct (d_valid d); cbn [negb fst ds_events]; auto. now apply eputs_unique.
  - cbn [drm fst ds_events]. now apply filter_unique.
Qed.
Theorem ddeploy_accepted st d : ev_unique (ds_events st) -> d_valid d = true ->
  snd (ddeploy st d) = true /\
  (exists r, mfind (ds_models (fst (ddeploy st d))) (d_id d) = Some r /\ m_text r = d_text d /\
             m_ver r = match mfind (ds_models st) (d_id d) with Some old => S (m_ver old) | None => 1 end) /\
  (forall j, j <> d_id d -> mfind (ds_models (fst (ddeploy st d))) j = mfind (ds_models st) j) /\
  (forall a, In a (d_on d) -> has_event (ds_events (fst (ddeploy st d))) (d_id d) a = 1).
Proof.
  intros Hu Hv. unfold ddeploy. rewrite Hv. cbn [negb fst snd ds_models ds_events].
  split; [reflexivity|]. split; [|split; [|intros a Ha; now apply eputs_has]].
  - rewrite mfind_deploy, Nat.eqb_refl. eexists. repeat split. unfold ver_of. now destruct (mfind _ _).
  - intros j Hj%not_eq_sym%Nat.eqb_neq. now rewrite mfind_deploy, Hj.
Qed.
Theorem ddeploy_rejected st d : d_valid d = false -> ddeploy st d = (st, false).
Proof. intros Hv. unfold ddeploy. now rewrite Hv. Qed.
Theorem start_unknown st id : mfind (ds_models st) id = None -> dstart st id = false.
Proof. intros H. unfold dstart. now rewrite H. Qed.
Lemma mfind_drm st id j : mfind (ds_models (fst (drm st id))) j = if Nat.eqb j id then None else mfind (ds_models st) j.
Proof.
  cbn [drm fst ds_models]. induction (ds_models st) as [|r l IH]; cbn; [now destruct (Nat.eqb j id)|].
  destruct (Nat.eqb_spec (m_id r) id) as [E|N]; cbn; destruct (Nat.eqb_spec (m_id r) j) as [E'|N']; try exact IH.
  - destruct (Nat.eqb_spec j id); [exact IH | congruence].
  - destruct (Nat.eqb_spec j id); [congruence | reflexivity].
Qed.
Theorem start_never_deployed ops id :
  (forall d, In (DDeploy d) ops -> d_id d <> id) -> dstart (drun ops dinit) id = false.
Proof.
  intros H. apply start_unknown. unfold drun.
  apply (fold_left_inv_in (fun st => mfind (ds_models st) id = None)); [|reflexivity].
  intros st o Hin H0. destruct o as [d|j|j]; cbn [dstep fst]; auto.
  - unfold ddeploy. destruct (d_valid d); cbn [negb fst ds_models]; auto.
    rewrite mfind_deploy. now destruct (Nat.eqb_spec (d_id d) id) as [E%(H d Hin)|].
  - rewrite mfind_drm, H0. now destruct (Nat.eqb id j).
Qed.
Theorem rm_model_events st id e :
  In e (ds_events (fst (drm st id))) <-> In e (ds_events st) /\ e_mid e <> id.
Proof. cbn [drm fst ds_events]. rewrite filter_In, negb_true_iff, Nat.eqb_neq. reflexivity. Qed.
Theorem rm_model_other_models st id j : j <> id -> mfind (ds_models (fst (drm st id))) j = mfind (ds_models st) j.
Proof. intros H. rewrite mfind_drm. now destruct (Nat.eqb_spec j id). Qed.
