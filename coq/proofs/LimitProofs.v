(* model/Limit.v, the limit part of C19: a timeout limit is accepted exactly when it is an i64 followed by one unit letter,
   and its conversion to milliseconds is monotone. *)
From Coq Require Import List ZArith Bool Lia.
Import ListNotations.
From Acts.Model Require Import Limit.
Local Open Scope Z_scope.

Lemma split_last_app p c : split_last (p ++ [c]) = Some (p, c).
Proof. induction p as [|x p IH]; simpl; auto. rewrite IH. destruct (p ++ [c]) eqn:E; auto. destruct p; discriminate. Qed.
Lemma split_last_spec s p c : split_last s = Some (p, c) -> s = p ++ [c].
Proof. destruct s as [|c' p' _] using rev_ind; [discriminate|]. rewrite split_last_app. now intros [= -> ->]. Qed.
Lemma unit_roundtrip u : unit_of_byte (byte_of_unit u) = Some u. Proof. destruct u; reflexivity. Qed.
Lemma unit_of_byte_inv b u : unit_of_byte b = Some u -> b = byte_of_unit u.
Proof.
  unfold unit_of_byte. destruct (Nat.eqb_spec b 115), (Nat.eqb_spec b 109), (Nat.eqb_spec b 104), (Nat.eqb_spec b 100);
    intros [= <-]; assumption.
Qed.
Theorem parse_limit_spec s v u : parse_limit s = Some (v, u) <-> exists p, s = p ++ [byte_of_unit u] /\ parse_i64 p = Some v.
Proof.
  unfold parse_limit. split.
  - destruct (split_last s) as [[p c]|] eqn:E; [|discriminate]. apply split_last_spec in E.
    destruct (unit_of_byte c) as [u'|] eqn:Eu; [|discriminate]. destruct (parse_i64 p) as [v'|] eqn:Ev; [|discriminate].
    intros H; inversion H; subst. exists p. split; auto. f_equal. f_equal. now apply unit_of_byte_inv.
  - intros (p & -> & Hp). rewrite split_last_app, unit_roundtrip, Hp. reflexivity.
Qed.
Lemma signed_range sign r v : signed sign r = Some v -> i64_min <= v <= i64_max.
Proof.
  unfold signed. intros H. destruct r; [discriminate|]. destruct (digits _ _); [|discriminate]. cbv zeta in H.
  destruct (Z.leb i64_min (sign * z) && Z.leb (sign * z) i64_max) eqn:E; [|discriminate]. inversion H; subst.
  apply andb_true_iff in E as [E1 E2]. apply Z.leb_le in E1, E2. lia.
Qed.
Theorem parse_i64_range l v : parse_i64 l = Some v -> i64_min <= v <= i64_max.
Proof.
  unfold parse_i64. destruct l as [|b r]; [discriminate|].
  destruct (Nat.eqb b 43); [apply signed_range|]. destruct (Nat.eqb b 45); apply signed_range.
Qed.
Lemma digits_app a b acc : digits (a ++ b) acc = match digits a acc with Some n => digits b n | None => None end.
Proof. revert acc; induction a as [|d a IH]; intros acc; simpl; auto. destruct (is_digit d); auto. Qed.
(* 43, 45, 48 are the bytes of '+', '-', '0' *)
Theorem parse_i64_rejects : parse_i64 [] = None /\ parse_i64 [43%nat] = None /\ parse_i64 [45%nat] = None /\
  forall l b r, is_digit b = false -> parse_i64 (48%nat :: l ++ b :: r) = None.
Proof.
  repeat split. intros l b r Hb. unfold parse_i64, signed. simpl.
  rewrite digits_app. destruct (digits l _); simpl; now rewrite ?Hb.
Qed.
Theorem as_secs_factor v u : as_secs (v, u) = v * factor u. Proof. reflexivity. Qed.
Theorem factor_values : factor USecond = 1 /\ factor UMinute = 60 /\ factor UHour = 60 * 60 /\ factor UDay = 60 * 60 * 24.
Proof. repeat split. Qed.
Theorem limit_monotone v v' u : v <= v' -> limit_ms (v, u) <= limit_ms (v', u).
Proof. unfold limit_ms, as_secs; simpl. intros H. destruct u; simpl; lia. Qed.
Theorem limit_nonneg v u : 0 <= v -> 0 <= limit_ms (v, u).
Proof. exact (limit_monotone 0 v u). Qed.
Theorem digits_snoc l d acc n : digits l acc = Some n -> is_digit d = true -> digits (l ++ [d]) acc = Some (n * 10 + Z.of_nat (d - 48)).
Proof. intros H Hd. rewrite digits_app, H. simpl. now rewrite Hd. Qed.
