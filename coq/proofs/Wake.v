(* C01, the review chain: whoever closes the last open child of a running workflow / branch / step / act closes that
   parent too (every engine state that satisfies J, every fuel), and an act closed by a client with no successor to start
   hands over to the review of its parent.  These are the links whose absence the known stuck classes are (a hook act is
   never reviewed: t_evproc; an errored child of an act blocks the count). *)
From Coq Require Import List ZArith Lia.
Import ListNotations.
From Acts.Gen Require Import GenState.
From Acts.Model Require Import Engine Tree.
From Acts.Proofs Require Import Unfold EngineBasics C02Core EngineLemmas FinalProofs Findings.

Lemma review_tail f cv i before e1 (isr : bool) :
  J e1 -> is_completed (st e1 i) = true -> st e1 i <> SError -> st (review_end f cv i before (isr, e1)) i = st e1 i.
Proof. intros HJ Hc He. apply steps_stays; auto. now apply then_review_end, steps_refl. Qed.
(* what the three theorems below share: a review whose kind's part r completes the reviewed task leaves it completed *)
Lemma review_completes f cv from e i r : J e -> i < ntasks e -> t_evproc (tk e from) = false ->
  let e0 := update_data e i (outputs e from) in
  review_head f cv e0 i = r -> (J e0 -> i < ntasks e0 -> steps e0 (snd r) /\ st (snd r) i = SCompleted) ->
  st (review (S f) cv from e i) i = SCompleted.
Proof.
  intros HJ Hi Hev e0 Er Hr. rewrite review_phases, Hev. fold e0. cbv zeta. rewrite Er.
  assert (H0 : steps e e0) by (apply (steps_quiet _ _ _ (steps_refl e HJ)), xext_update_data).
  pose proof (steps_lt _ _ _ H0 Hi) as R0. destruct (Hr (steps_J _ _ H0) R0) as [H1 S1]. destruct r as [isr e1]; cbn [snd] in H1, S1.
  rewrite review_tail; [exact S1 | exact (steps_J _ _ H1) | now rewrite S1 | now rewrite S1].
Qed.
Lemma finish_st site (b1 b2 : bool) e i : J e -> i < ntasks e -> is_completed (st e i) = false ->
  steps e (snd (finish site b1 b2 e i)) /\ st (snd (finish site b1 b2 e i)) i = SCompleted.
Proof.
  intros HJ Hi Hc. unfold finish. cbv zeta. rewrite Hc. cbn [negb]. pose proof (st_set_state_in site e i SCompleted Hi) as S1.
  assert (H1 : steps e (set_state site e i SCompleted)) by (apply steps_write; [now apply steps_refl | now apply legal_to_terminal]).
  destruct (n_next _); cbn [snd]; [|now split].
  assert (X : xext (set_state site e i SCompleted) (sched_next (set_state site e i SCompleted) n i))
    by (apply xext_sched_next; now rewrite S1).
  split; [exact (steps_quiet _ _ _ H1 X) | now rewrite (xext_st _ _ i X)].
Qed.

(* workflow and branch: every task started directly beneath is done (hook acts aside) *)
Theorem last_child_completes_container f cv from e i :
  J e -> i < ntasks e -> t_evproc (tk e from) = false ->
  let e0 := update_data e i (outputs e from) in
  (kind e0 i = KWorkflow \/ kind e0 i = KBranch) -> st e0 i = SRunning ->
  forallb (child_done e0) (children e0 i) = true ->
  st (review (S f) cv from e i) i = SCompleted.
Proof.
  intros HJ Hi Hev e0 Hk Hs Hd. destruct (review_head_container f cv e0 i Hk Hs) as [site Er]. unfold child_done in Hd. rewrite Hd in Er.
  apply (review_completes f cv from e i _ HJ Hi Hev Er). intros J0 R0. cbn [snd].
  split; [apply steps_write; [now apply steps_refl | now rewrite Hs] | now apply st_set_state_in].
Qed.

Theorem last_child_completes_step f cv from e i :
  J e -> i < ntasks e -> t_evproc (tk e from) = false ->
  let e0 := update_data e i (outputs e from) in
  kind e0 i = KStep -> st e0 i = SRunning ->
  forallb (fun j => is_completed (st e0 j)) (children e0 i) = true ->
  st (review (S f) cv from e i) i = SCompleted.
Proof.
  intros HJ Hi Hev e0 Hk Hs Hd. assert (Er : review_head f cv e0 i = finish 16 false true e0 i).
  { rewrite review_head_step, Hd; [reflexivity | exact Hk | exact Hs|].
    intros j Hj. rewrite forallb_forall in Hd. specialize (Hd j Hj). revert Hd. generalize (st e0 j). intros [] H; reflexivity || discriminate H. }
  apply (review_completes f cv from e i _ HJ Hi Hev Er). intros J0 R0. apply finish_st; [exact J0 | exact R0 | now rewrite Hs].
Qed.

Lemma act_scan_count e l : (forall j, In j l -> is_completed (st e j) = true /\ st e j <> SError /\ st e j <> SSkipped) ->
  forall n, act_scan e l n = AS_count (n + length l).
Proof.
  induction l as [|j l IH]; intros Hl n; cbn [act_scan length]; [f_equal; lia|].
  destruct (Hl j (or_introl eq_refl)) as (Hc & He & Hk).
  assert (E1 : is (st e j) SError = false) by (destruct (st e j); simpl in *; congruence).
  assert (E2 : is (st e j) SSkipped = false) by (destruct (st e j); simpl in *; congruence).
  rewrite E1, E2, Hc, IH by (intros; apply Hl; now right). f_equal; lia.
Qed.
Theorem last_child_completes_act f cv from e i :
  J e -> i < ntasks e -> t_evproc (tk e from) = false ->
  let e0 := update_data e i (outputs e from) in
  kind e0 i = KAct -> st e0 i = SRunning ->
  (forall j, In j (children e0 i) -> is_completed (st e0 j) = true /\ st e0 j <> SError /\ st e0 j <> SSkipped) ->
  st (review (S f) cv from e i) i = SCompleted.
Proof.
  intros HJ Hi Hev e0 Hk Hs Hd. assert (Er : review_head f cv e0 i = finish 18 false true e0 i).
  { unfold review_head. rewrite Hk, Hs. cbv zeta. rewrite (act_scan_count e0 _ Hd 0). cbn [Nat.add]. rewrite Nat.eqb_refl. unfold finish. now rewrite Hs. }
  apply (review_completes f cv from e i _ HJ Hi Hev Er). intros J0 R0. apply finish_st; [exact J0 | exact R0 | now rewrite Hs].
Qed.

(* the hand-over: an act closed by a client (completed / submitted / removed ... written by the action), with no successor to
   start and not a hook act, reviews its parent right after its own message *)
Theorem closed_act_reviews_its_parent f cv e i :
  kind e i = KAct -> is_completed (st e i) = true -> st e i <> SSkipped -> st e i <> SCompleted \/ n_next (tnode e i) = None ->
  let e2 := emit f (update_data e i cv) i in
  t_evproc (tk e2 i) = false ->
  next (S f) cv e i = match parent e2 i with Some p => review f cv i e2 p | None => e2 end.
Proof.
  intros Hk Hc Hns Hnx e2 Hev. rewrite next_phases, (next_head_closed_act f cv e i Hk Hc).
  assert (E : (if orb (is (st e i) SSkipped) (is (st e i) SCompleted)
               then match n_next (tnode e i) with Some nx => (true, sched_next e nx i) | None => (false, e) end else (false, e)) = (false, e)).
  { destruct Hnx as [Hnx | ->]; [now destruct (st e i) | now destruct (orb _ _)]. }
  rewrite E. unfold next_end, handover. rewrite Hc. fold e2. now rewrite Hev.
Qed.

(* non-vacuity: one step with one act; the client has just completed the act (site 22), the step is running and its only
   child is closed: the hypotheses of last_child_completes_step hold, and the act is no hook act *)
Definition w_one := wf [Step 1 None None [] [] [] [] [Act 2 None irq [] [] None [] [] []] [] []].
Definition e_answered : option eng := option_map (fun e => set_state 22 e 2 SCompleted) (go w_one []).
Example wake_premises : option_map (fun e =>
    let e0 := update_data e 1 (outputs e 2) in
    (Nat.ltb 1 (ntasks e), t_evproc (tk e 2), nkind_beq (kind e0 1) KStep, is (st e0 1) SRunning,
     forallb (fun j => is_completed (st e0 j)) (children e0 1), children e0 1,
     nkind_beq (kind e 2) KAct, n_next (tnode e 2), parent (emit 20 (update_data e 2 []) 2) 2)) e_answered
  = Some (true, false, true, true, true, [2], true, None, Some 1).
Proof. vm_compute. reflexivity. Qed.
