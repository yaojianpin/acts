(* C05, the admission of actions: `admission` read as one disjunction of rejections (admission_eq), what an accepted action
   implies (admissible), and how Task::update ends (ends); hence a rejected action leaves the engine as it was, and a
   terminal act or an ended process rejects. *)
From Coq Require Import List ZArith Bool.
Import ListNotations.
From Acts.Gen Require Import GenState.
From Acts.Model Require Import Engine.

Lemma ret_err_ne_ok x y : ret_err x <> ret_ok y.
Proof.
  intros H. unfold ret_err, ret_ok, add_ev in H. apply (f_equal trace) in H; cbn [trace with_trace] in H.
  apply app_inj_tail in H as [_ H]; discriminate.
Qed.

(* how Task::update ends: rejected with nothing touched, accepted, or -- cancel alone -- failed after it has marked
   path tasks *)
Definition ends (e : eng) (a : action) (x : eng) : Prop :=
  x = ret_err e \/ (exists e', x = ret_ok e') \/ (a = ACancel /\ exists e', x = ret_err (persist e')).
Lemma perform_ends e i a cv : ends e a (perform e i a cv).
Proof.
  assert (Err : ends e a (ret_err e)) by now left.
  assert (Ok : forall x, ends e a (ret_ok x)) by (intros x; right; left; now exists x).
  destruct a as [| | | | | code | to | | ok]; unfold perform; try apply Ok.
  - destruct code; [destruct (parent e i); [apply Ok | exact Err] | exact Err].
  - destruct to; [destruct (backs _ _ _ _ _) as [[t|] path]; [apply Ok | exact Err] | exact Err].
  - destruct (climb_step e i) as [s|]; [|exact Err]. destruct (negb _); [exact Err|].
    destruct (follows _ _ _ _) as [nexts path]. destruct nexts; [exact Err|].
    destruct (fold_left _ _ _) as [e2 failed]. destruct failed; [|apply Ok]. right; right. split; [reflexivity | now exists e2].
  - destruct ok; [destruct (is _ _); apply Ok | exact Err].
Qed.
Lemma perform_noop e i a cv :
  is_cancel a = false -> perform e i a cv = ret_err e \/ exists e', perform e i a cv = ret_ok e'.
Proof. intros Hc. destruct (perform_ends e i a cv) as [H | [H | [-> _]]]; [now left | now right | discriminate Hc]. Qed.

(* the options and the action as Task::update gets them: cut down to the declared outputs, which also drops
   `ecode`, `to`, `uses` *)
Definition cut_opts (e : eng) (i : nat) (opts : vars) : vars :=
  if n_outs (tnode e i)
  then map (fun kv => (fst kv, match vget opts (fst kv) with Some x => x | None => VNull end)) (n_outputs (tnode e i))
  else opts.
Definition cut (e : eng) (i : nat) (a : action) : action :=
  if n_outs (tnode e i)
  then match a with AError _ => AError None | ABack _ => ABack None | APush _ => APush false | x => x end
  else a.
Lemma is_cancel_cut e i a : is_cancel (cut e i a) = is_cancel a.
Proof. unfold cut. destruct (n_outs _), a; reflexivity. Qed.

(* `admission` read once: the five rejections of Process::do_action in source order, then the `already completed`
   guard that every arm of Task::update but cancel begins with *)
Lemma admission_eq e i a opts :
  let push := match a with APush _ => true | _ => false end in
  admission e i a opts =
  if is_completed (pstate e) || Nat.leb (length (tasks e)) i || push && negb (nkind_beq (kind e i) KStep)
     || negb push && negb (nkind_beq (kind e i) KAct)
     || n_outs (tnode e i) && negb (forallb (fun kv => vhas opts (fst kv)) (n_outputs (tnode e i)))
     || negb (is_cancel a) && is_completed (st e i)
  then None else Some (cut_opts e i opts, cut e i a).
Proof.
  cbv zeta. rewrite <- (is_cancel_cut e i a). unfold admission, cut_opts, cut.
  destruct (is_completed (pstate e)); [reflexivity|]. destruct (Nat.leb _ _); [reflexivity|].
  destruct (_ && negb (nkind_beq (kind e i) KStep)); [reflexivity|]. destruct (_ && negb (nkind_beq (kind e i) KAct)); [reflexivity|].
  destruct (n_outs (tnode e i) && _); reflexivity.
Qed.

Definition admissible (e : eng) (i : nat) (a : action) (opts : vars) : Prop :=
  is_completed (pstate e) = false /\ i < length (tasks e) /\
  (match a with APush _ => kind e i = KStep | _ => kind e i = KAct end) /\
  forallb (fun kv => vhas opts (fst kv)) (n_outputs (tnode e i)) = true /\
  (is_cancel a = false -> is_completed (st e i) = false).

Lemma admission_inv e i a opts cv a' : admission e i a opts = Some (cv, a') ->
  admissible e i a opts /\ cv = cut_opts e i opts /\ a' = cut e i a.
Proof.
  rewrite admission_eq. cbv zeta. destruct (_ || _) eqn:E; [discriminate|]. intros H. injection H as <- <-.
  rewrite !orb_false_iff in E. destruct E as (((((E1 & E2) & E3) & E4) & E5) & E6).
  split; [|split; reflexivity]. split; [exact E1|]. split; [now apply Nat.leb_gt|]. split; [|split].
  - destruct a; cbn [andb negb] in E3, E4; apply internal_nkind_dec_bl; now destruct (nkind_beq _ _).
  - unfold n_outs in E5. destruct (n_outputs (tnode e i)); [reflexivity|]. cbn [length Nat.eqb negb andb] in E5. now destruct (forallb _ _).
  - intros Hc. rewrite Hc in E6. exact E6.
Qed.
Lemma admission_some e i a opts cv a' : admission e i a opts = Some (cv, a') -> admissible e i a opts.
Proof. intros H. exact (proj1 (admission_inv _ _ _ _ _ _ H)). Qed.
Lemma admission_cancel e i a opts cv a' : admission e i a opts = Some (cv, a') -> is_cancel a' = is_cancel a.
Proof. intros H. destruct (admission_inv _ _ _ _ _ _ H) as (_ & _ & ->). apply is_cancel_cut. Qed.
Lemma admission_keeps e i a opts cv a' : admission e i a opts = Some (cv, a') ->
  match a with AError _ | ABack _ | APush _ => True | _ => a' = a end.
Proof.
  intros H. destruct (admission_inv _ _ _ _ _ _ H) as (_ & _ & ->). unfold cut.
  destruct (n_outs _), a; exact I || reflexivity.
Qed.

(* C05: a rejected complete / submit / skip / remove / abort / error / back / push leaves the whole
   engine state untouched -- tasks, rows, nodes, queue, process state, clock -- and emits nothing;
   only the result marker is appended *)
Lemma reject_noop e i a opts :
  is_cancel a = false ->
  do_action e i a opts = ret_err e \/ exists e', do_action e i a opts = ret_ok e'.
Proof.
  intros Hc. unfold do_action. destruct (admission e i a opts) as [[cv a']|] eqn:A; [|left; reflexivity].
  apply perform_noop. rewrite (admission_cancel _ _ _ _ _ _ A). exact Hc.
Qed.

Lemma accept_admissible e i a opts e1 : do_action e i a opts = ret_ok e1 -> admissible e i a opts.
Proof.
  intros H. unfold do_action in H. destruct (admission e i a opts) as [[cv a']|] eqn:A.
  - exact (admission_some _ _ _ _ _ _ A).
  - exfalso. exact (ret_err_ne_ok _ _ H).
Qed.

(* C05: once an act is terminal every further action on it but cancel is rejected; so is every action once the process
   has ended (C03 too) *)
Lemma terminal_rejects e i a opts :
  is_cancel a = false -> is_completed (st e i) = true -> do_action e i a opts = ret_err e.
Proof.
  intros Hc Hs. unfold do_action. rewrite admission_eq. cbv zeta. rewrite Hc, Hs, orb_true_r. reflexivity.
Qed.
Lemma ended_rejects e i a opts : is_completed (pstate e) = true -> do_action e i a opts = ret_err e.
Proof. intros H. unfold do_action, admission. now rewrite H. Qed.
