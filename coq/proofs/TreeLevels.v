(* model/Tree.v, C20: the node table lists, in declaration order, the kind and the nesting depth of every declared
   construct.  It is TreeProofs.tree_grows read at (kind, depth), as TreeProofs.tree_ids is at the id. *)
From Coq Require Import List.
Import ListNotations.
From Acts.Model Require Import Engine Tree.
From Acts.Proofs Require Import TreeProofs.

Definition kl := (nkind * nat)%type.
Fixpoint kl_step (lvl : nat) (s : step) : list kl :=
  match s with
  | Step _ _ _ _ _ _ branches acts catches tmos =>
      (KStep, lvl) :: flat_map (kl_branch (S lvl)) branches
         ++ flat_map (kl_act (S lvl)) acts ++ flat_map (kl_catch (S lvl)) catches ++ flat_map (kl_tmo (S lvl)) tmos
  end
with kl_branch (lvl : nat) (b : branch) : list kl :=
  match b with Branch _ _ _ _ steps => (KBranch, lvl) :: flat_map (kl_step (S lvl)) steps end
with kl_act (lvl : nat) (a : act) : list kl :=
  match a with Act _ _ _ _ _ _ _ catches tmos => (KAct, lvl) :: flat_map (kl_catch (S lvl)) catches ++ flat_map (kl_tmo (S lvl)) tmos end
with kl_catch (lvl : nat) (c : catch) : list kl := match c with Catch _ steps => flat_map (kl_step lvl) steps end
with kl_tmo (lvl : nat) (x : tmo) : list kl := match x with Tmo _ _ steps => flat_map (kl_step lvl) steps end.

Definition tkl (t : tbl) : list kl := map (fun n => (n_kind n, n_level n)) t.
Definition declared_kl (w : workflow) : list kl := (KWorkflow, 0) :: flat_map (kl_step 1) (w_steps w).
Theorem tree_kl f w t : build_tree f w = Some t -> tkl t = declared_kl w.
Proof. intros H. apply (tree_grows (fun _ k l => (k, l)) kl_step kl_branch kl_act kl_catch kl_tmo) in H; [apply H | reflexivity..]. Qed.
Theorem tree_rows f w t : build_tree f w = Some t ->
  map (fun n => (n_id n, n_kind n, n_level n)) t = combine (combine (built_ids w) (map fst (declared_kl w))) (map snd (declared_kl w)).
Proof.
  intros H. rewrite <- (tree_ids f w t H), <- (tree_kl f w t H). unfold tids, tkl. clear H.
  induction t as [|n t IH]; simpl; [reflexivity|]. now rewrite IH.
Qed.
