(* C02, continued: every operation of the engine is a `steps` (C02Core), so every run satisfies J (run_J); then what J says
   of the trace of a run: the statements of C02, C06, C08 and C19 about whole runs. *)
From Coq Require Import List ZArith Bool Lia Permutation.
Import ListNotations.
From Acts.Gen Require Import GenState.
From Acts.Model Require Import Engine Oracles.
From Acts.Proofs Require Import ListFacts Unfold EngineBasics TimeoutInv ReviveInv LogInv TraceMono C02Core C05Proofs.

Lemma sched_pick_steps e k : J e -> steps e (sched_pick e k).
Proof.
  intros HJ. unfold sched_pick. destruct (nth_error (queue e) k) as [i|] eqn:En; [|now apply steps_refl].
  eapply steps_then; [|apply step_queue_steps]. apply (steps_quiet _ _ _ (steps_refl e HJ)), xext_with_queue.
  intros x. apply Permutation_in, Permutation_sym, pick_perm, En.
Qed.
Lemma drain_steps n e : J e -> steps e (drain n e).
Proof.
  revert e; induction n as [|n IH]; intros e HJ; simpl; [now apply steps_refl|].
  destruct (queue e); [now apply steps_refl|]. eapply steps_then; [now apply step_queue_steps | apply IH].
Qed.

Lemma steps_fire e0 e t r : steps e0 e -> t < ntasks e0 ->
  rule_fires (clock e) (t_start (tk e t)) (t_tmo_done (tk e t)) (is_completed (st e t)) r = true -> steps e0 (fire e t r).
Proof.
  intros H Ht Hr.
  apply (steps_frame _ _ _ H); [|reflexivity | reflexivity | apply (ntasks_tmod (add_ev e _)) | eapply pre_trans; [apply pre_add_ev | apply pre_tmod]].
  intros HJ. apply Inv_fire; [apply HJ | exact (steps_lt _ _ _ H Ht) | exact Hr].
Qed.
Lemma do_tick_steps e adv : J e -> steps e (do_tick e adv).
Proof.
  intros HJ. apply do_tick_inv; [apply (steps_quiet _ _ _ (steps_refl e HJ)), xext_with_clock | apply steps_persist|].
  intros ee t r Rt Hee Er. pose proof (steps_fire _ _ t r Hee Rt Er) as Hf. apply (steps_quiet _ _ _ Hf), xext_sched_nodes, (steps_lt _ _ _ Hf Rt).
Qed.

Lemma steps_close_open site e0 e l s : steps e0 e -> is_completed s = true -> steps e0 (close_open site e l s).
Proof.
  intros H Hs. unfold close_open. apply (fold_left_inv (steps e0)); [|exact H].
  intros ee j Hee. destruct (is_completed (st ee j)) eqn:Ec; [exact Hee|].
  apply then_close; [exact Hee | now apply legal_to_terminal].
Qed.
Lemma close_other F site e t s i : s <> SError -> i <> t -> st (emit F (set_state site e t s) t) i = st e i.
Proof.
  intros Hs Hi. rewrite <- (st_set_state_other site e t s i Hi). apply xext_st, xext_emit.
  destruct (st_set_state_same site e t s) as [-> | [Ht ->]]; [exact Hs | now rewrite st_oob].
Qed.
Lemma close_open_st site e l s i : s <> SError -> ~ In i l -> st (close_open site e l s) i = st e i.
Proof.
  intros Hs. unfold close_open. revert e. induction l as [|j l IH]; intros e Hi; simpl; auto.
  assert (Hi' : ~ In i l) by (intros H; apply Hi; now right).
  destruct (is_completed (st e j)); [now apply IH|].
  rewrite IH by exact Hi'. apply close_other; [exact Hs | intros ->; apply Hi; now left].
Qed.
Lemma abort_up_steps f e p : J e -> steps e (abort_up f e p).
Proof.
  revert e p; induction f as [|f IH]; intros e p HJ; [now apply steps_refl|].
  destruct p as [t|]; [rewrite abort_up_S | now apply steps_refl]. pose proof (steps_refl e HJ) as H0.
  assert (H1 : steps e (if is_completed (st e t) then e else emit (fuel_of e) (set_state 28 e t SAborted) t)).
  { destruct (is_completed (st e t)) eqn:Ec; [exact H0|]. apply then_close; [exact H0 | now apply legal_to_terminal]. }
  forget (if is_completed (st e t) then e else emit (fuel_of e) (set_state 28 e t SAborted) t) as e1 with H1.
  eapply steps_then; [|apply IH]. apply (fold_left_inv (steps e)); [|exact H1]. intros ee c Hee.
  destruct (is (st ee c) SPending) eqn:EP; [apply is_eq in EP; apply then_close; [exact Hee | now rewrite EP]|].
  destruct (is (st ee c) SRunning) eqn:ER; [apply is_eq in ER; apply then_close; [exact Hee | now rewrite ER] | exact Hee].
Qed.
Lemma abort_sweep_steps e skip : J e -> steps e (abort_sweep e skip).
Proof.
  intros HJ. unfold abort_sweep. apply (fold_left_inv (steps e)); [|now apply steps_refl].
  intros ee t Hee. destruct (is_completed (st ee t) || existsb (Nat.eqb t) skip) eqn:Ec; [exact Hee|].
  apply orb_false_iff in Ec as [Ec _].
  apply then_close; [exact Hee | apply legal_to_terminal; [exact Ec | destruct (is _ _); reflexivity]].
Qed.
Lemma abort_rest_steps e2 i : J e2 -> steps e2 (abort_rest e2 i).
Proof. intros J2. unfold abort_rest. cbv zeta. eapply steps_then; [now apply abort_sweep_steps | apply abort_up_steps]. Qed.
Lemma steps_mark_path e0 e path : steps e0 e -> steps e0 (mark_path e path).
Proof.
  intros H. unfold mark_path. apply (fold_left_inv (steps e0)); [|exact H]. intros ee p Hee.
  destruct (is (st ee p) SRunning) eqn:ER; [apply is_eq in ER; apply then_close; [exact Hee | now rewrite ER]|].
  destruct (is (st ee p) SPending) eqn:EP; [apply is_eq in EP; apply then_close; [exact Hee | now rewrite EP] | exact Hee].
Qed.

(* undo_task's sweep over the descendants of nx: it cancels tasks created after nx only *)
Lemma undo_children_steps nx : forall f e l, J e -> (forall j, In j l -> nx < j) ->
  steps e (undo_children f e l) /\ st (undo_children f e l) nx = st e nx.
Proof.
  induction f as [|f IH]; intros e l HJ Hl; simpl; [split; [now apply steps_refl | reflexivity]|].
  destruct l as [|j0 l0] eqn:El; [split; [now apply steps_refl | reflexivity]|]. rewrite <- El in *. clear El.
  match goal with |- context [fold_left ?g l (e, [])] => set (r := fold_left g l (e, [])) end.
  assert (Hfold : steps e (fst r) /\ st (fst r) nx = st e nx /\ forall x, In x (snd r) -> nx < x).
  { apply (fold_left_inv_in (fun acc => steps e (fst acc) /\ st (fst acc) nx = st e nx /\ forall x, In x (snd acc) -> nx < x));
      [|cbn [fst snd]; split; [now apply steps_refl | split; [reflexivity | intros x []]]].
    intros [ee nxs] t Ht (Hee & See & Hnx). cbn [fst snd] in Hee, See, Hnx. pose proof (Hl t Ht) as Hgt. cbv zeta.
    destruct (is_completed (st ee t)) eqn:Ec; cbn [fst snd]; [auto|].
    pose proof (then_close (fuel_of ee) 37 e ee t SCancelled Hee (legal_to_terminal _ SCancelled Ec eq_refl)) as H1.
    split; [exact H1 | split].
    - rewrite close_other; [exact See | discriminate | lia].
    - intros x Hx. apply in_app_or in Hx as [Hx | Hx]; [now apply Hnx|].
      pose proof (children_gt _ _ _ (J_W _ (steps_J _ _ H1)) Hx). lia. }
  clearbody r. destruct r as [e' nexts], Hfold as (Hf & Sf & Nf). cbn [fst snd] in Hf, Sf, Nf.
  destruct (IH e' nexts (steps_J _ _ Hf) Nf) as [Hr Sr].
  split; [eapply steps_trans; eauto | congruence].
Qed.

Lemma steps_ret_ok e0 e : steps e0 e -> steps e0 (ret_ok e).
Proof. intros H. unfold ret_ok. apply (steps_quiet _ _ _ (steps_persist _ _ H)). now apply xext_add_ev. Qed.
Lemma steps_ret_err e0 e : steps e0 e -> steps e0 (ret_err e).
Proof. intros H. apply (steps_quiet _ _ _ H). now apply xext_add_ev. Qed.
Lemma steps_redo e0 e t : steps e0 e -> steps e0 (redo e t).
Proof. intros H. apply (steps_quiet _ _ _ H), xext_redo, J_W, (steps_J _ _ H). Qed.

Lemma close_siblings site e i : J e -> is_completed (st e i) = false ->
  steps e (close_open site e (siblings e i) SSkipped) /\ is_completed (st (close_open site e (siblings e i) SSkipped) i) = false.
Proof.
  intros HJ Ho. split; [apply steps_close_open; [now apply steps_refl | reflexivity]|].
  rewrite close_open_st; [exact Ho | discriminate | intros Hin; now apply siblings_ne in Hin].
Qed.
(* the actions that close the act they are sent to, with the state they leave it in (FinalProofs.closing is this table as a function) *)
Definition closers : list (action * TaskState) :=
  [(ANext, SCompleted); (ASubmit, SSubmitted); (ARemove, SRemoved); (ASkip, SSkipped); (AAbort, SAborted)].
(* Their arms of Task::update: once the open siblings are closed (skip, abort) the state is written to the act, which is open
   until then, and the engine goes on from the state x that write leaves. *)
Lemma perform_closing e i cv a s : J e -> i < ntasks e -> is_completed (st e i) = false -> In (a, s) closers ->
  exists x, steps e x /\ st x i = s /\ steps x (perform e i a cv).
Proof.
  intros HJ Hi Ho Hin.
  assert (Hw : forall site e1 F, steps e e1 -> is_completed (st e1 i) = false -> is_completed s = true ->
            (forall x, J x -> steps x (F x)) ->
            let x := set_state site e1 i s in steps e x /\ st x i = s /\ steps x (ret_ok (F x))).
  { intros site e1 F H1 S1 Hs HF x. pose proof (steps_write site _ _ i s H1 (legal_to_terminal _ s S1 Hs)) as Hx.
    split; [exact Hx | split; [apply st_set_state_in, (steps_lt _ _ _ H1 Hi)|]].
    apply steps_ret_ok, HF, (steps_J _ _ Hx). }
  assert (Hn : forall F x, J x -> steps x (next F cv x i)) by (intros F x Jx; now apply then_next, steps_refl).
  assert (Ha : forall F x, J x -> steps x (abort_rest (emit F (set_data x i cv) i) i)).
  { intros F x Jx. eapply steps_then; [|apply abort_rest_steps]. apply then_emit, (steps_quiet _ _ _ (steps_refl x Jx)), xext_set_data. }
  destruct (close_siblings 26 e i HJ Ho) as [H1 S1]. pose proof (steps_refl e HJ) as H0.
  destruct Hin as [E | [E | [E | [E | [E | []]]]]]; injection E as <- <-; eexists.
  1-4: unfold perform; cbv zeta.
  1-3: exact (Hw _ e (fun x => next (fuel_of e) cv x i) H0 Ho eq_refl (Hn _)).
  - exact (Hw 25 _ (fun x => next (fuel_of (close_open 26 e (siblings e i) SSkipped)) cv x i) H1 S1 eq_refl (Hn _)).
  - (* abort: the act is written aborted, emitted, then the rest of the process is closed around it *)
    rewrite perform_abort. cbv zeta.
    exact (Hw 27 _ (fun x => abort_rest (emit (fuel_of (close_open 26 e (siblings e i) SSkipped)) (set_data x i cv) i) i) H1 S1 eq_refl (Ha _)).
Qed.
Lemma perform_steps e i a cv : J e -> i < ntasks e -> (is_cancel a = false -> is_completed (st e i) = false) -> steps e (perform e i a cv).
Proof.
  intros HJ Hi Hopen. pose proof (J_W e HJ) as HW. pose proof (steps_refl e HJ) as H0.
  assert (Hclose : forall s, In (a, s) closers -> is_cancel a = false -> steps e (perform e i a cv)).
  { intros s Hin Hc. destruct (perform_closing e i cv a s HJ Hi (Hopen Hc) Hin) as (x & Hx & _ & Hp). exact (steps_trans _ _ _ Hx Hp). }
  destruct a.
  1-5: (eapply Hclose; [unfold closers; eauto 6 using in_eq, in_cons | reflexivity]).
  all: clear Hclose; unfold perform; cbv zeta.
  - (* error *)
    destruct code as [c|]; [|now apply steps_ret_err].
    destruct (parent e i) as [p|] eqn:Ep; [|now apply steps_ret_err].
    assert (H1 : steps e (close_open 32 e (siblings e p) SSkipped)) by (apply steps_close_open; [exact H0 | reflexivity]).
    assert (S1 : st (close_open 32 e (siblings e p) SSkipped) i = st e i).
    { apply close_open_st; [discriminate | eapply not_sibling_of_parent; eauto]. }
    forget (close_open 32 e (siblings e p) SSkipped) as e1 with H1 S1.
    apply steps_ret_ok, then_emit_error. eapply steps_quiet; [|apply xext_set_data].
    apply steps_err; [exact H1 | rewrite S1; apply legal_to_terminal; auto].
  - (* back *)
    destruct to as [nid|]; [|now apply steps_ret_err].
    destruct (backs (S (length (tasks e))) e nid (t_prev (tk e i)) []) as [[t|] path]; [|now apply steps_ret_err].
    destruct (close_siblings 34 e i HJ (Hopen eq_refl)) as [H1 S1]. forget (close_open 34 e (siblings e i) SSkipped) as e1 with H1 S1.
    pose proof (then_close (fuel_of e1) 33 _ _ i SBacked H1 (legal_to_terminal _ SBacked S1 eq_refl)) as H2.
    forget (emit (fuel_of e1) (set_state 33 e1 i SBacked) i) as e2 with H2.
    apply steps_ret_ok, steps_redo, steps_mark_path.
    destruct (climb_to _ _ _ _) as [p|]; [|exact H2]. destruct (is_completed (st e2 p)) eqn:Ecp; [exact H2|].
    apply then_close; [exact H2 | now apply legal_to_terminal].
  - (* cancel *)
    destruct (climb_step e i) as [s|]; [|now apply steps_ret_err].
    destruct (negb (is (st e s) SCompleted)); [now apply steps_ret_err|].
    destruct (follows (S (length (tasks e))) e s []) as [nexts path].
    destruct nexts as [|n0 ns] eqn:En; [now apply steps_ret_err|]. rewrite <- En. clear En.
    pose proof (steps_mark_path _ _ path H0) as H1. forget (mark_path e path) as e1 with H1.
    match goal with |- steps e (let '(e2, failed) := fold_left ?g nexts (e1, false) in _) =>
      assert (HF : steps e (fst (fold_left g nexts (e1, false)))); [|destruct (fold_left g nexts (e1, false)) as [e2 failed]] end.
    { apply (fold_left_inv (fun acc => steps e (fst acc))); [|exact H1]. intros [ee fl] nx Hee. cbn [fst] in Hee.
      destruct fl; [exact Hee|]. destruct (is_completed (st ee nx)) eqn:Ec; [exact Hee|]. cbv zeta. cbn [fst].
      destruct (undo_children_steps nx (S (length (tasks ee))) ee (children ee nx) (steps_J _ _ Hee)) as [Hu Su].
      { intros j Hj. apply (children_gt ee nx j (J_W _ (steps_J _ _ Hee)) Hj). }
      forget (undo_children (S (length (tasks ee))) ee (children ee nx)) as ee1 with Hu Su.
      apply then_close; [exact (steps_trans _ _ _ Hee Hu) | rewrite Su; now apply legal_to_terminal]. }
    cbn [fst] in HF.
    destruct failed; [apply steps_ret_err, steps_persist, HF|].
    apply steps_ret_ok, steps_redo, HF.
  - (* push *)
    destruct (negb uses_ok); [now apply steps_ret_err|].
    assert (H1 : steps e (with_nodes e (nodes e ++ [mk_dyn (S (n_level (tnode e i))) dspec]))) by (apply (steps_quiet _ _ _ H0), xext_with_nodes).
    destruct (is _ SNone); apply steps_ret_ok; [exact H1|]. apply (steps_quiet _ _ _ H1), xext_sched, (steps_lt _ _ _ H1 Hi).
Qed.

Lemma do_action_steps e i a opts : J e -> steps e (do_action e i a opts).
Proof.
  intros HJ. unfold do_action. destruct (admission e i a opts) as [[cv a']|] eqn:A; [|apply steps_ret_err; now apply steps_refl].
  destruct (admission_some _ _ _ _ _ _ A) as (_ & Hi & _ & _ & Hopen).
  apply perform_steps; [exact HJ | exact Hi|]. intros Hc. apply Hopen. now rewrite <- (admission_cancel _ _ _ _ _ _ A).
Qed.

Lemma apply_op_steps e o : J e -> steps e (apply_op e o).
Proof.
  intros HJ. destruct o; cbn [apply_op].
  - now apply sched_pick_steps.
  - eapply steps_quiet; [now apply drain_steps | now apply xext_add_ev].
  - now apply do_action_steps.
  - now apply do_tick_steps.
Qed.
Theorem ops_steps ops : forall e, J e -> steps e (fold_left apply_op ops e).
Proof.
  induction ops as [|o ops IH]; intros e HJ; cbn [fold_left]; [now apply steps_refl|].
  eapply steps_then; [now apply apply_op_steps | apply IH].
Qed.

Lemma start_J ns c0 : J (start ns c0).
Proof.
  split; [split; [|split; [|split; [|split; [|split]]]]|split].
  - reflexivity.
  - intros t Ht. unfold start, tk in Ht; cbn in Ht. destruct t as [|[|t]]; cbn in Ht; congruence.
  - intros t Ht. unfold ntasks, start in Ht; cbn in Ht. assert (t = 0) by lia. subst. cbn. exact I.
  - split; [reflexivity | split; [constructor | intros t on []]].
  - split; [constructor | intros t []].
  - split; [reflexivity | intros t; unfold start, st, tk; cbn; destruct t as [|[|t]]; reflexivity].
  - reflexivity.
  - intros i [<- | []]. unfold ntasks, start; cbn. lia.
Qed.

Theorem run_J ns c0 ops : J (run ns c0 ops).
Proof. exact (steps_J _ _ (ops_steps ops _ (start_J ns c0))). Qed.

Lemma log_segment e l1 l2 l3 : J e -> trace e = l1 ++ l2 ++ l3 -> logok (cur c_none l1) l2 = true /\ forallb legal_ev l2 = true.
Proof.
  intros HJ E. destruct (J_L _ HJ) as [Hl _]. pose proof (J_P _ HJ) as HP. unfold P in HP. rewrite E in Hl, HP.
  rewrite !logok_app in Hl. rewrite !forallb_app in HP.
  apply andb_true_iff in Hl as [_ Hl]. apply andb_true_iff in Hl as [Hl _].
  apply andb_true_iff in HP as [_ HP]. apply andb_true_iff in HP as [HP _]. now split.
Qed.

(* C02 *)
Theorem all_transitions_legal ns c0 ops t o n a site :
  In (ETrans t o n a site) (trace (run ns c0 ops)) -> legal o n = true \/ revive o n = true.
Proof.
  intros Hin. pose proof (J_P _ (run_J ns c0 ops)) as HP. unfold P in HP. rewrite forallb_forall in HP.
  specialize (HP _ Hin). simpl in HP. now apply orb_true_iff in HP.
Qed.

Lemma legal_meaning o n : legal o n = true -> stage o <= stage n /\ (is_completed o = true -> n = o).
Proof.
  intros H. destruct o, n; simpl in *; try discriminate; split; auto; try lia; try discriminate; try reflexivity.
Qed.
Lemma terminal_final ns c0 ops t o n a s :
  In (ETrans t o n a s) (trace (run ns c0 ops)) -> is_completed o = true -> n = o \/ (o = SError /\ n = SRunning).
Proof.
  intros Hin Hc. destruct (all_transitions_legal _ _ _ _ _ _ _ _ Hin) as [H | H].
  - left. now apply legal_meaning.
  - right. unfold revive in H. apply andb_true_iff in H as [H1 H2]. split; now apply is_eq.
Qed.

(* C06 *)
Theorem error_only_with_error_state ns c0 ops t : t_err (tk (run ns c0 ops) t) <> None -> st (run ns c0 ops) t = SError.
Proof. apply J_Q, run_J. Qed.

(* C02 / C06 *)
Theorem revived_at_most_once ns c0 ops t l1 l2 l3 a1 s1 a2 s2 :
  trace (run ns c0 ops) = l1 ++ ETrans t SError SRunning a1 s1 :: l2 ++ ETrans t SError SRunning a2 s2 :: l3 -> False.
Proof.
  destruct (J_R _ (run_J ns c0 ops)) as [HN _]. now apply no_second_revival.
Qed.
Theorem revived_is_marked ns c0 ops t a s :
  In (ETrans t SError SRunning a s) (trace (run ns c0 ops)) -> t_catch_done (tk (run ns c0 ops) t) = true.
Proof.
  intros Hin. apply (proj2 (J_R _ (run_J ns c0 ops))).
  apply revivals_In. exists SError, SRunning, a, s. split; auto.
Qed.

(* C19 *)
Theorem never_early ns c0 ops t on now start limit :
  In (EFire t on now start limit) (trace (run ns c0 ops)) -> (limit <= now - start)%Z.
Proof.
  intros Hin. destruct (J_T _ (run_J ns c0 ops)) as (HF & _). rewrite forallb_forall in HF. apply Z.leb_le, (HF _ Hin).
Qed.
Theorem at_most_once ns c0 ops : NoDup (fires (trace (run ns c0 ops))).
Proof. exact (proj1 (proj2 (J_T _ (run_J ns c0 ops)))). Qed.

Theorem log_faithful ns c0 ops :
  logok c_none (trace (run ns c0 ops)) = true /\ forall t, cur c_none (trace (run ns c0 ops)) t = st (run ns c0 ops) t.
Proof. apply J_L, run_J. Qed.
(* C02 *)
Theorem write_from_current ns c0 ops l1 l2 t o n a s :
  trace (run ns c0 ops) = l1 ++ ETrans t o n a s :: l2 -> o = cur c_none l1 t.
Proof.
  intros E. destruct (log_faithful ns c0 ops) as [H _]. rewrite E in H. apply logok_at in H. simpl in H. now apply is_eq.
Qed.
(* C08 *)
Theorem message_reports_current ns c0 ops l1 l2 t s i o :
  trace (run ns c0 ops) = l1 ++ EMsg t s i o :: l2 -> s = cur c_none l1 t /\ s <> SPending /\ s <> SRunning.
Proof.
  intros E. destruct (log_faithful ns c0 ops) as [H _]. rewrite E in H. apply logok_at in H. simpl in H.
  apply andb_true_iff in H as [H H3]. apply andb_true_iff in H as [H1 H2]. split; [now apply is_eq|].
  split; intros ->; simpl in *; discriminate.
Qed.

Lemma cstep_forward c x t : evok c x = true -> legal_ev x = true ->
  (exists n a s, x = ETrans t (c t) n a s /\ revive (c t) n = true) \/
  (stage (c t) <= stage (cstep c x t) /\ (is_completed (c t) = true -> cstep c x t = c t)).
Proof.
  intros Hx Px. destruct x as [| t' o n a s | | | | | |]; try (right; split; [apply le_n | reflexivity]).
  cbn [cstep]. destruct (Nat.eqb_spec t t') as [<- | Hne]; [|right; split; [apply le_n | reflexivity]].
  cbn [evok] in Hx. apply is_eq in Hx. subst o. cbn [legal_ev] in Px.
  destruct (revive (c t) n) eqn:Er; [left; now exists n, a, s|]. right. rewrite orb_false_r in Px. now apply legal_meaning.
Qed.
Lemma history_forward tr : forall c t, logok c tr = true -> forallb legal_ev tr = true -> ~ In t (revivals tr) ->
  stage (c t) <= stage (cur c tr t) /\ (is_completed (c t) = true -> cur c tr t = c t).
Proof.
  induction tr as [|x tr IH]; intros c t Hl Hp Hr; [simpl; split; auto|].
  cbn [logok forallb cur] in *.
  apply andb_true_iff in Hl as [Hx Hl]. apply andb_true_iff in Hp as [Px Pp].
  destruct (cstep_forward c x t Hx Px) as [(n & a & s & -> & Er) | [S1 S2]].
  - destruct Hr. cbn [revivals]. rewrite Er. now left.
  - destruct (IH (cstep c x) t Hl Pp) as [I1 I2].
    { intros Hin. apply Hr. destruct x; cbn [revivals]; auto. destruct (revive _ _); [now right | exact Hin]. }
    split; [lia|]. intros Hc. rewrite I2; [now apply S2 | now rewrite S2].
Qed.
(* C02 *)
Theorem states_only_move_forward ns c0 ops l1 l2 t :
  trace (run ns c0 ops) = l1 ++ l2 -> ~ In t (revivals l2) ->
  stage (cur c_none l1 t) <= stage (st (run ns c0 ops) t) /\
  (is_completed (cur c_none l1 t) = true -> st (run ns c0 ops) t = cur c_none l1 t).
Proof.
  intros E Hr. destruct (log_segment _ l1 l2 [] (run_J ns c0 ops)) as [Hl HP]; [now rewrite app_nil_r|].
  rewrite <- (proj2 (log_faithful ns c0 ops)), E, cur_app. now apply history_forward.
Qed.
