(* model/StoreQ.v, C10: what a query of the memory store returns (selection, order, page), and that create / update /
   delete act on the collection as on a map kept in the order of its ids. *)
From Coq Require Import List ZArith Bool Lia Sorting.Permutation Sorting.Sorted.
Import ListNotations.
From Acts.Model Require Import StoreQ.
From Acts.Proofs Require Import ListFacts.

Lemma mem_spec x l : mem x l = true <-> In x l.
Proof. apply existsb_eqb_In, Nat.eqb_eq. Qed.
Lemma inter_spec x a b : In x (inter a b) <-> In x a /\ In x b.
Proof. unfold inter; rewrite filter_In, mem_spec; tauto. Qed.
Lemma union_spec x a b : In x (union a b) <-> In x a \/ In x b.
Proof. unfold union; rewrite in_app_iff, filter_In, negb_true_iff; split.
  - intros [H | [H _]]; auto.
  - intros [H | H]; auto. destruct (mem x a) eqn:E; [left; now apply mem_spec | right; auto]. Qed.

Definition keys (d : db) := map fst d.
Definition wf_db (d : db) := NoDup (keys d).

(* The query loop computes with lists of record ids.  Each is read as the predicate on documents it denotes; inter, union
   and the two folds are then &&, ||, forallb and existsb. *)
Section Denotes.
Variable d : db.
Definition denotes (l : list nat) (p : row -> bool) : Prop := forall k, In k l <-> exists r, In (k, r) d /\ p r = true.

Lemma den_ext l p q : (forall r, p r = q r) -> denotes l p -> denotes l q.
Proof. intros E H k. rewrite (H k). split; intros (r & H1 & H2); exists r; [rewrite <- E | rewrite E]; auto. Qed.
Lemma den_nil : denotes [] (fun _ => false).
Proof. intros k. split; [intros [] | intros (r & _ & H); discriminate]. Qed.
Lemma den_ids_of e : denotes (ids_of d e) (fun r => sat_expr r e).
Proof.
  intros k. unfold ids_of; rewrite in_map_iff; split.
  - intros ((k', r) & E & H); simpl in E; subst. apply filter_In in H as [H1 H2]. eauto.
  - intros (r & H1 & H2). exists (k, r); split; auto. apply filter_In; auto.
Qed.
Lemma den_union a b p q : denotes a p -> denotes b q -> denotes (union a b) (fun r => p r || q r).
Proof.
  intros Ha Hb k. rewrite union_spec, (Ha k), (Hb k). split.
  - intros [(r & H1 & H2) | (r & H1 & H2)]; exists r; rewrite H2; auto using orb_true_r.
  - intros (r & H1 & H2). apply orb_true_iff in H2 as [H2 | H2]; [left | right]; eauto.
Qed.
Hypothesis W : wf_db d.
(* only here the ids must be unique: both sides speak of the same document *)
Lemma den_inter a b p q : denotes a p -> denotes b q -> denotes (inter a b) (fun r => p r && q r).
Proof.
  intros Ha Hb k. rewrite inter_spec, (Ha k), (Hb k). split.
  - intros [(r & H1 & H2) (r' & H3 & H4)]. rewrite (NoDup_fst_unique d k r' r W H3 H1) in H4. exists r. now rewrite H2, H4.
  - intros (r & H1 & H2). apply andb_true_iff in H2 as [H2 H3]. split; exists r; split; assumption.
Qed.
Lemma den_fold_inter {X} (f : X -> list nat) (p : X -> row -> bool) xs : (forall x, In x xs -> denotes (f x) (p x)) ->
  forall acc q, denotes acc q -> denotes (fold_left (fun a x => inter a (f x)) xs acc) (fun r => q r && forallb (fun x => p x r) xs).
Proof.
  induction xs as [|x xs IH]; intros Hf acc q H; simpl.
  - eapply den_ext; [|exact H]. intros r. now rewrite andb_true_r.
  - eapply den_ext; [|apply IH, den_inter; [intros; apply Hf; now right | exact H | apply Hf; now left]]. intros r. simpl. now rewrite andb_assoc.
Qed.
Lemma den_fold_union {X} (f : X -> list nat) (p : X -> row -> bool) xs : (forall x, denotes (f x) (p x)) ->
  forall acc q, denotes acc q -> denotes (fold_left (fun a x => union a (f x)) xs acc) (fun r => q r || existsb (fun x => p x r) xs).
Proof.
  intros Hf. induction xs as [|x xs IH]; intros acc q H; simpl.
  - eapply den_ext; [|exact H]. intros r. now rewrite orb_false_r.
  - eapply den_ext; [|apply IH, den_union; [exact H | apply Hf]]. intros r. simpl. now rewrite orb_assoc.
Qed.

Lemma den_cond c : live_cond c = true -> denotes (cond_result d c) (fun r => sat_cond r c).
Proof.
  unfold cond_result, sat_cond, live_cond. destruct (c_exprs c) as [|e es], (c_type c); try discriminate; intros _.
  - apply den_nil.
  - apply (den_fold_inter (ids_of d) (fun e r => sat_expr r e)); intros; apply den_ids_of.
  - apply (den_fold_union (ids_of d) (fun e r => sat_expr r e)); apply den_ids_of.
Qed.

Lemma sat_dead r c : live_cond c = false -> sat_cond r c = true.
Proof. unfold live_cond, sat_cond. destruct (c_exprs c), (c_type c); simpl; auto; discriminate. Qed.
Lemma sat_query_live r cs : sat_query r cs = forallb (sat_cond r) (filter live_cond cs).
Proof.
  unfold sat_query; induction cs as [|c cs IH]; simpl; auto.
  destruct (live_cond c) eqn:E; simpl; rewrite IH; auto. now rewrite (sat_dead r c E).
Qed.
Lemma is_cond_filter cs : is_cond cs = false <-> filter live_cond cs = [].
Proof.
  unfold is_cond. induction cs as [|c cs IH]; simpl; [tauto|].
  destruct (live_cond c); simpl; [split; discriminate | exact IH].
Qed.
Lemma den_query cs : is_cond cs = true -> denotes (query_calc d cs) (fun r => sat_query r cs).
Proof.
  intros Hc. eapply den_ext; [intros r; symmetry; apply sat_query_live|]. unfold query_calc.
  assert (Hl : forall c, In c (filter live_cond cs) -> live_cond c = true) by (intros c H; now apply filter_In in H).
  destruct (filter live_cond cs) as [|c l] eqn:F; [apply is_cond_filter in F; congruence|]. simpl.
  assert (E : forall l acc, fold_left (fun a c => match a with None => Some (cond_result d c) | Some a' => Some (inter a' (cond_result d c)) end) l (Some acc)
                            = Some (fold_left (fun a c => inter a (cond_result d c)) l acc)) by (induction l0; simpl; auto).
  rewrite E. clear E.
  apply (den_fold_inter (cond_result d) (fun c r => sat_cond r c)); [intros x Hx; apply den_cond, Hl; now right | apply den_cond, Hl; now left].
Qed.

End Denotes.

Theorem select_is_filter d cs : wf_db d -> select d cs = filter (fun kr => sat_query (snd kr) cs) d.
Proof.
  intros W. unfold select. destruct (is_cond cs) eqn:Hc.
  - apply filter_ext_in. intros (k, r) Hk; simpl. apply eq_true_iff_eq. rewrite mem_spec, (den_query d W cs Hc k). split; [|eauto].
    intros (r' & H1 & H2). now rewrite (NoDup_fst_unique d k r r' W Hk H1).
  - apply is_cond_filter in Hc. clear W. induction d as [|(k, r) l IH]; simpl; [reflexivity|].
    now rewrite sat_query_live, Hc, <- IH.
Qed.
Lemma cond_result_in_db d c k : In k (cond_result d c) -> exists r, In (k, r) d.
Proof.
  assert (S : forall e k, In k (ids_of d e) -> exists r, In (k, r) d) by (intros e k0 H; apply den_ids_of in H as (r & H & _); eauto).
  unfold cond_result. destruct (c_exprs c) as [|e es]; [intros []|]. revert k.
  apply (fold_left_inv (fun l => forall k, In k l -> exists r, In (k, r) d)); [|apply S].
  intros acc e' H k. destruct (c_type c); simpl; [rewrite inter_spec; intros [? _]; auto | rewrite union_spec; intros [?|?]; eauto].
Qed.
Corollary select_spec d cs k r : wf_db d ->
  (In (k, r) (select d cs) <-> In (k, r) d /\ sat_query r cs = true).
Proof. intros W. rewrite select_is_filter by assumption. rewrite filter_In; simpl; tauto. Qed.

Lemma jv_cmp_antisym a b : jv_cmp b a = CompOpp (jv_cmp a b).
Proof.
  destruct a as [|[]|x|x], b as [|[]|y|y]; simpl; auto.
  - apply Z.compare_antisym.
  - apply Nat.compare_antisym.
Qed.
Lemma row_cmp_antisym ord a b : row_cmp ord b a = CompOpp (row_cmp ord a b).
Proof.
  induction ord as [|(k, rev) t IH]; simpl; auto.
  destruct rev; [rewrite (jv_cmp_antisym (fget b k) (fget a k)) | rewrite (jv_cmp_antisym (fget a k) (fget b k))];
    destruct (jv_cmp _ _); simpl; auto.
Qed.

Definition le_rows ord (x y : nat * row) : Prop := row_cmp ord (snd x) (snd y) <> Gt.

Lemma insert_sorted_perm ord x l : Permutation (x :: l) (insert_sorted ord x l).
Proof.
  induction l as [|y t IH]; simpl; auto.
  destruct (row_cmp ord (snd x) (snd y)); auto.
  eapply perm_trans; [apply perm_swap|]. now apply perm_skip.
Qed.
Lemma sort_rows_perm ord l : Permutation l (sort_rows ord l).
Proof.
  induction l as [|x l IH]; simpl; auto.
  eapply perm_trans; [apply perm_skip, IH | apply insert_sorted_perm].
Qed.

Lemma insert_sorted_hd ord x l z : HdRel (le_rows ord) z l -> le_rows ord z x -> HdRel (le_rows ord) z (insert_sorted ord x l).
Proof.
  destruct l as [|y t]; simpl; intros H Hx; [constructor; auto|].
  destruct (row_cmp ord (snd x) (snd y)); constructor; auto; now inversion H.
Qed.
Lemma insert_sorted_sorted ord x l : Sorted (le_rows ord) l -> Sorted (le_rows ord) (insert_sorted ord x l).
Proof.
  induction l as [|y t IH]; simpl; intros S; [repeat constructor|].
  inversion S as [|? ? S' Hd]; subst.
  destruct (row_cmp ord (snd x) (snd y)) eqn:E.
  1, 2: constructor; auto; constructor; unfold le_rows; rewrite E; discriminate.
  constructor; [apply IH; auto|]. apply insert_sorted_hd; auto.
  unfold le_rows. rewrite row_cmp_antisym, E. discriminate.
Qed.
Theorem sort_rows_sorted ord l : Sorted (le_rows ord) (sort_rows ord l).
Proof. induction l as [|x l IH]; simpl; [constructor | now apply insert_sorted_sorted]. Qed.

Lemma le_rows_num k x y a b :
  fget (snd x) k = JNum a -> fget (snd y) k = JNum b ->
  (le_rows [(k, false)] x y <-> (a <= b)%Z) /\ (le_rows [(k, true)] x y <-> (b <= a)%Z).
Proof.
  intros Ha Hb; unfold le_rows, Z.le; simpl; rewrite Ha, Hb; simpl.
  split; [destruct (a ?= b)%Z | destruct (b ?= a)%Z]; reflexivity.
Qed.

Theorem run_query_spec d q : wf_db d ->
  let sel := filter (fun kr => sat_query (snd kr) (q_conds q)) d in
  let p := run_query d q in
  p_count p = length sel /\
  p_page_size p = q_limit q /\
  (exists all, Permutation sel all /\ (q_order q <> [] -> Sorted (le_rows (q_order q)) all) /\
               (q_order q = [] -> all = sel) /\
               p_rows p = firstn (q_limit q) (skipn (q_offset q) all)).
Proof.
  intros W sel p. unfold p, run_query. rewrite select_is_filter by assumption. fold sel.
  destruct (q_order q) as [|o os] eqn:Eo; simpl.
  - repeat split; auto. exists sel. repeat split; auto. congruence.
  - split; [|split; auto].
    + symmetry. apply Permutation_length, sort_rows_perm.
    + exists (sort_rows (o :: os) sel). repeat split.
      * apply sort_rows_perm.
      * intros _. apply sort_rows_sorted.
      * discriminate.
Qed.

Lemma find_insert d k r j : db_find (db_insert d k r) j = if Nat.eqb j k then Some r else db_find d j.
Proof.
  induction d as [|(k', r') t IH]; simpl; [reflexivity|].
  destruct (Nat.ltb k k'); simpl; [reflexivity|].
  destruct (Nat.eqb_spec k k') as [<-|N]; simpl; [now destruct (Nat.eqb j k)|].
  rewrite IH. destruct (Nat.eqb_spec j k'), (Nat.eqb_spec j k); congruence.
Qed.
Lemma find_update d k r j : db_find (db_update d k r) j = if Nat.eqb j k then (if has d k then Some r else None) else db_find d j.
Proof.
  unfold has, db_update. induction d as [|(k', r') t IH]; simpl; [now destruct (Nat.eqb j k)|]. rewrite IH.
  destruct (Nat.eqb_spec k' k) as [->|N]; simpl.
  - rewrite Nat.eqb_refl. now destruct (Nat.eqb j k).
  - destruct (Nat.eqb_spec j k'), (Nat.eqb_spec j k), (Nat.eqb_spec k k'); congruence.
Qed.
Lemma find_delete d k j : db_find (db_delete d k) j = if Nat.eqb j k then None else db_find d j.
Proof. now apply (find_del Nat.eqb Nat.eqb_spec (fun j d => db_find d j)). Qed.

Lemma find_insert_same d k r : db_find (db_insert d k r) k = Some r.
Proof. now rewrite find_insert, Nat.eqb_refl. Qed.
Lemma find_insert_other d k r j : j <> k -> db_find (db_insert d k r) j = db_find d j.
Proof. intros H. rewrite find_insert. now apply Nat.eqb_neq in H as ->. Qed.
Lemma find_update_same d k r : db_find d k <> None -> db_find (db_update d k r) k = Some r.
Proof. intros H. rewrite find_update, Nat.eqb_refl. unfold has. now destruct (db_find d k). Qed.
Lemma find_update_other d k r j : j <> k -> db_find (db_update d k r) j = db_find d j.
Proof. intros H. rewrite find_update. now apply Nat.eqb_neq in H as ->. Qed.
Lemma find_delete_same d k : db_find (db_delete d k) k = None.
Proof. now rewrite find_delete, Nat.eqb_refl. Qed.
Lemma find_delete_other d k j : j <> k -> db_find (db_delete d k) j = db_find d j.
Proof. intros H. rewrite find_delete. now apply Nat.eqb_neq in H as ->. Qed.

(* the collection is kept in the order of the ids (a BTreeMap) *)
Lemma sorted_wf d : StronglySorted lt (keys d) -> wf_db d.
Proof.
  unfold wf_db. induction 1 as [|k l _ IH H]; constructor; [|exact IH].
  intros Hin. rewrite Forall_forall in H. apply H in Hin. lia.
Qed.
Lemma keys_insert d k r x : In x (keys (db_insert d k r)) -> k = x \/ In x (keys d).
Proof.
  unfold keys; induction d as [|(k', r') t IH]; simpl; [tauto|].
  destruct (Nat.ltb k k'); simpl; [tauto|].
  destruct (Nat.eqb_spec k k') as [<-|]; simpl; [tauto|]. intros [H | H]; [tauto | apply IH in H; tauto].
Qed.
Lemma sorted_insert d k r : StronglySorted lt (keys d) -> StronglySorted lt (keys (db_insert d k r)).
Proof.
  induction d as [|(k', r') t IH]; simpl; intros H; [repeat constructor|].
  inversion H as [|? ? H2 H1]; subst. rewrite Forall_forall in H1.
  destruct (Nat.ltb_spec k k'); simpl.
  - constructor; [exact H|]. constructor; [assumption|]. apply Forall_forall. intros x Hx. specialize (H1 x Hx). lia.
  - destruct (Nat.eqb_spec k k') as [->|N]; simpl; [exact H|].
    constructor; [exact (IH H2)|]. apply Forall_forall. intros x Hx. apply keys_insert in Hx as [<- | Hx]; [lia | auto].
Qed.
Lemma keys_update d k r : keys (db_update d k r) = keys d.
Proof.
  unfold keys, db_update. rewrite map_map. apply map_ext_in. intros (k', r') _; simpl.
  destruct (Nat.eqb_spec k' k); simpl; auto.
Qed.
Lemma sorted_delete d k : StronglySorted lt (keys d) -> StronglySorted lt (keys (db_delete d k)).
Proof.
  unfold db_delete; induction d as [|(k', r') t IH]; simpl; intros H; [constructor|].
  inversion H as [|? ? H2 H1]; subst. destruct (Nat.eqb k' k); simpl; [auto|].
  constructor; [auto|]. rewrite Forall_forall in *. intros x Hx. apply H1.
  apply in_map_iff in Hx as (y & E & Hy). apply filter_In in Hy as [Hy _]. apply in_map_iff; eauto.
Qed.

Theorem srun_sorted ops d : StronglySorted lt (keys d) -> StronglySorted lt (keys (fst (srun d ops))).
Proof.
  revert ops d. apply (run_inv sstep srun); [reflexivity | reflexivity|].
  intros d o H. destruct o; simpl; auto using sorted_insert, sorted_delete.
  - destruct (has d k); simpl; auto using sorted_insert.
  - now rewrite keys_update.
Qed.
