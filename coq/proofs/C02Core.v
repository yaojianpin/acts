(* C02 (every state write of every run is a legal forward transition, or the revival of an errored task by its catch), the
   core: the invariant J, `steps` and its calculus, the walk through emit / emit_error / next / review by induction on the
   fuel, then Task::exec and the scheduler step.  C02Ops goes on to the operations and to runs. *)
From Coq Require Import List ZArith Bool Lia.
Import ListNotations.
From Acts.Gen Require Import GenState.
From Acts.Model Require Import Engine Oracles.
From Acts.Proofs Require Import ListFacts Unfold EngineBasics TimeoutInv ReviveInv LogInv TraceMono.

Definition legal_ev (x : ev) : bool :=
  match x with ETrans _ o n _ _ => legal o n || revive o n | _ => true end.
Definition P (e : eng) : Prop := forallb legal_ev (trace e) = true.
Definition Q (e : eng) : Prop := forall t, t_err (tk e t) <> None -> st e t = SError.
Definition Inv (e : eng) : Prop := P e /\ Q e /\ W e /\ T e /\ R e /\ L e.
(* exn = false: no failure of Task::exec is pending.  Between exec raising the flag and Scheduler::next clearing it J does
   not hold (`failed`). *)
Definition J (e : eng) : Prop := Inv e /\ exn e = false /\ QR e.
Lemma J_P e : J e -> P e. Proof. intros ((H & _) & _). exact H. Qed.
Lemma J_Q e : J e -> Q e. Proof. intros ((_ & H & _) & _). exact H. Qed.
Lemma J_W e : J e -> W e. Proof. intros ((_ & _ & H & _) & _). exact H. Qed.
Lemma J_R e : J e -> R e. Proof. intros ((_ & _ & _ & _ & H & _) & _). exact H. Qed.
Lemma J_L e : J e -> L e. Proof. intros ((_ & _ & _ & _ & _ & H) & _). exact H. Qed.
Lemma J_exn e : J e -> exn e = false. Proof. intros (_ & H & _). exact H. Qed.
Lemma J_QR e : J e -> QR e. Proof. intros (_ & _ & H). exact H. Qed.
Lemma J_T e : J e -> T e. Proof. intros ((_ & _ & _ & H & _) & _). exact H. Qed.

Lemma legal_ev_nontrans x : is_trans x = false -> legal_ev x = true.
Proof. destruct x; simpl; auto; discriminate. Qed.
Lemma forallb_nontrans l : forallb (fun x => negb (is_trans x)) l = true -> forallb legal_ev l = true.
Proof.
  induction l as [|x l IH]; simpl; auto. intros H. apply andb_true_iff in H as [H1 H2].
  rewrite IH by assumption. rewrite legal_ev_nontrans; auto. now destruct (is_trans x).
Qed.

Lemma Inv_ext e e' : ext e e' -> Inv e -> Inv e'.
Proof.
  intros X (HP & HQ & HW & HT & HR & HL). split; [|split; [|split; [|split; [|split]]]].
  - destruct X as (_ & (l & Tl & F & _) & _). unfold P. rewrite Tl, forallb_app, HP. simpl. now apply forallb_nontrans.
  - intros t Ht. rewrite (ext_st _ _ t X). apply HQ. now rewrite <- (ext_err _ _ t X).
  - eapply W_ext; eauto.
  - eapply T_ext; eauto.
  - eapply R_ext; eauto.
  - eapply L_ext; eauto.
Qed.
Definition xext (e e' : eng) : Prop := ext e e' /\ exn e' = exn e.
Lemma J_xext e e' : xext e e' -> J e -> J e'.
Proof. intros [X E] (HI & HX & HQ). split; [eapply Inv_ext; eauto | split; [congruence | eapply QR_ext; eauto]]. Qed.
Lemma xext_st e e' t : xext e e' -> st e' t = st e t. Proof. intros [X _]. apply (ext_st _ _ t X). Qed.
Lemma xext_len e e' : xext e e' -> ntasks e <= ntasks e'. Proof. intros [X _]. apply (ext_len _ _ X). Qed.

Lemma legal_to_terminal o n : is_completed o = false -> is_completed n = true -> legal o n = true.
Proof. destruct o, n; simpl; intros; try discriminate; reflexivity. Qed.

Lemma P_set_state site e i s : P e -> legal (st e i) s || revive (st e i) s = true -> P (set_state site e i s).
Proof.
  intros HP L. destruct (set_state_cases site e i s) as [-> | [_ E]]; [exact HP|].
  unfold P. rewrite E, forallb_app, HP. simpl. now rewrite L.
Qed.
(* the write clears the error of its task unless the new state is error: nothing is asked of that task *)
Lemma Q_set_state site e i s : (forall t, t <> i -> t_err (tk e t) <> None -> st e t = SError) -> Q (set_state site e i s).
Proof.
  intros HQ t Ht. unfold st in *. rewrite tk_set_state in *.
  destruct (Nat.eqb_spec t i) as [E | Hne]; cbn [andb] in *; [subst t | now apply HQ].
  destruct (Nat.ltb_spec i (ntasks e)) as [Hi | Hi]; cbn in *; [destruct (is s SError) eqn:ES; [now apply is_eq in ES | congruence]|].
  destruct Ht. unfold tk. now rewrite nth_overflow.
Qed.
Lemma Inv_set_state_gen site e i s : Inv e -> legal (st e i) s || revive (st e i) s = true ->
  (revive (st e i) s = false \/ (t_catch_done (tk e i) = true /\ ~ In i (revivals (trace e)))) -> Inv (set_state site e i s).
Proof.
  intros (HP & HQ & HW & HT & HR & HL) L Hrev.
  split; [now apply P_set_state | split; [apply Q_set_state; intros t _; apply HQ | split; [now apply W_set_state | split; [now apply T_set_state | split; [|now apply L_set_state]]]]].
  destruct Hrev as [Hn | [Hcd Hnew]]; [now apply R_set_state | now apply R_set_state_revive].
Qed.
Lemma Inv_set_state site e i s : Inv e -> legal (st e i) s = true -> Inv (set_state site e i s).
Proof. intros H L. apply Inv_set_state_gen; auto; [now rewrite L | left; now apply legal_not_revive]. Qed.
Lemma Inv_revive site e i : Inv e -> st e i = SError -> t_catch_done (tk e i) = true -> ~ In i (revivals (trace e)) ->
  Inv (set_state site e i SRunning).
Proof. intros H Hs Hcd Hnew. apply Inv_set_state_gen; auto. now rewrite Hs. Qed.

Lemma Q_tmod e i f : (forall x, t_state (f x) = t_state x) -> (forall x, t_err (f x) = t_err x) -> Q e -> Q (tmod e i f).
Proof. intros Ks Ke HQ t. rewrite st_tmod, (tmod_keeps t_err) by assumption. apply HQ. Qed.
Lemma Inv_tmod e i f :
  (forall x, t_state (f x) = t_state x /\ t_prev (f x) = t_prev x /\ t_tmo_done (f x) = t_tmo_done x /\
             t_err (f x) = t_err x /\ (t_catch_done x = true -> t_catch_done (f x) = true)) -> Inv e -> Inv (tmod e i f).
Proof.
  intros K (HP & HQ & HW & HT & HR & HL).
  split; [exact HP | split; [apply Q_tmod | split; [apply W_tmod | split; [apply T_tmod | split; [apply R_tmod | apply L_tmod]]]]]; auto; intros x; apply K.
Qed.
Lemma Inv_set_err site e i c : Inv e -> legal (st e i) SError = true -> Inv (set_err site e i c).
Proof.
  intros (HP & HQ & HW & HT & HR & HL) L. unfold set_err.
  assert (Hs : st (tmod e i (fun t => tset_err t (Some c))) i = st e i) by now apply st_tmod.
  split; [|split; [|split; [|split; [|split]]]].
  - apply P_set_state; [exact HP | now rewrite Hs, L].
  - apply Q_set_state. intros t Hti. rewrite st_tmod, tk_tmod by reflexivity. destruct (Nat.eqb_spec t i); [contradiction | apply HQ].
  - apply W_set_state, W_tmod; auto.
  - apply T_set_state, T_tmod; auto.
  - apply R_set_state; [apply R_tmod; auto|]. rewrite Hs. now apply legal_not_revive.
  - apply L_set_state, L_tmod; auto.
Qed.
Lemma exn_set_err site e i c : exn (set_err site e i c) = exn e.
Proof. unfold set_err. now rewrite exn_set_state. Qed.
Lemma ntasks_set_err site e i c : ntasks (set_err site e i c) = ntasks e.
Proof. unfold set_err. now rewrite ntasks_set_state, ntasks_tmod. Qed.
Lemma Inv_fire e t r : Inv e -> t < ntasks e ->
  rule_fires (clock e) (t_start (tk e t)) (t_tmo_done (tk e t)) (is_completed (st e t)) r = true -> Inv (fire e t r).
Proof.
  intros (HP & HQ & HW & HT & HR & HL) Ht Hr. unfold fire, add_tmo_done. split; [|split; [|split; [|split; [|split]]]].
  - unfold P. cbn [trace tmod with_tasks add_ev with_trace]. rewrite forallb_app, HP. reflexivity.
  - apply Q_tmod; [reflexivity | reflexivity | exact HQ].
  - apply W_tmod; auto.
  - now apply T_fire.
  - apply R_tmod; auto. now apply R_add_fire.
  - apply L_tmod; auto. now apply L_add_fire.
Qed.

Lemma xext_refl e : xext e e. Proof. split; [apply ext_refl | reflexivity]. Qed.
Lemma xext_trans a b c : xext a b -> xext b c -> xext a c.
Proof. intros [X1 E1] [X2 E2]. split; [eapply ext_trans; eauto | congruence]. Qed.
Lemma exn_tmod e i f : exn (tmod e i f) = exn e. Proof. reflexivity. Qed.
Lemma exn_sched e n p : exn (sched e n p) = exn e. Proof. reflexivity. Qed.
Lemma xext_with_rows e r : xext e (with_rows e r). Proof. split; [apply ext_with_rows | reflexivity]. Qed.
Lemma xext_with_prow e s : xext e (with_prow e s). Proof. split; [apply ext_with_prow | reflexivity]. Qed.
Lemma xext_with_pstate e s : xext e (with_pstate e s). Proof. split; [apply ext_with_pstate | reflexivity]. Qed.
Lemma xext_with_nodes e s : xext e (with_nodes e s). Proof. split; [apply ext_with_nodes | reflexivity]. Qed.
Lemma xext_with_clock e s : xext e (with_clock e s). Proof. split; [apply ext_with_clock | reflexivity]. Qed.
Lemma xext_oof e : xext e (out_of_fuel e). Proof. split; [apply ext_oof | reflexivity]. Qed.
Lemma xext_with_queue e q : incl q (queue e) -> xext e (with_queue e q). Proof. intros H. split; [now apply ext_with_queue | reflexivity]. Qed.
Lemma xext_add_ev e x : is_trans x = false -> msg_ok e x = true -> xext e (add_ev e x).
Proof. intros H M. split; [now apply ext_add_ev | reflexivity]. Qed.
Lemma xext_upsert e i : xext e (upsert e i). Proof. exact (xext_trans _ _ _ (xext_with_rows _ _) (xext_with_prow _ _)). Qed.
Lemma xext_persist e : xext e (persist e). Proof. exact (xext_trans _ _ _ (xext_with_rows _ _) (xext_with_prow _ _)). Qed.
Lemma xext_tmod e i f : keeps f -> xext e (tmod e i f). Proof. intros K. split; [now apply ext_tmod | reflexivity]. Qed.
Lemma xext_set_data e i v : xext e (set_data e i v). Proof. apply xext_tmod; intros y; repeat split; reflexivity. Qed.
Lemma xext_set_silent e i b : xext e (set_silent e i b). Proof. apply xext_tmod; intros y; repeat split; reflexivity. Qed.
Lemma xext_set_exposed e i b : xext e (set_exposed e i b). Proof. apply xext_tmod; intros y; repeat split; reflexivity. Qed.
Lemma xext_set_catch_done e i : ext e (set_catch_done e i) -> xext e (set_catch_done e i).
Proof. intros H; split; [exact H | reflexivity]. Qed.
Lemma xext_sched e n p : p < ntasks e -> xext e (sched e n p). Proof. intros H. split; [now apply ext_sched | reflexivity]. Qed.
Lemma xext_sched_next e n p : is_completed (st e p) = true -> xext e (sched_next e n p).
Proof. intros Hc. split; [apply ext_sched_next; [apply st_range; intros E; now rewrite E in Hc | exact Hc] | reflexivity]. Qed.
Lemma xext_sched_nodes e l i : i < ntasks e -> xext e (sched_nodes e l i).
Proof.
  unfold sched_nodes. revert e; induction l as [|c l IH]; intros e Hi; simpl; [apply xext_refl|].
  eapply xext_trans; [apply xext_sched; exact Hi | apply IH]. rewrite ntasks_sched; lia.
Qed.
(* a task that does not exist reads as dtask, which has no predecessor *)
Lemma xext_redo e t : W e -> xext e (redo e t).
Proof.
  intros HW. unfold redo. destruct (Nat.lt_ge_cases t (ntasks e)) as [Ht | Ht]; [|unfold tk; rewrite nth_overflow by exact Ht; apply xext_refl].
  specialize (HW t Ht). destruct (t_prev _); [apply xext_sched; lia | apply xext_refl].
Qed.
Lemma xext_build_acts e pn acts sq : xext e (build_acts e pn acts sq).
Proof.
  apply (build_acts_inv (fun _ ee => xext e ee)); [apply xext_refl|]. intros _ ee x k f H.
  apply (xext_trans _ _ _ H). unfold nmod. eapply xext_trans; apply xext_with_nodes.
Qed.
Lemma xext_dispatch_setup e i s : xext e (dispatch_setup e i s).
Proof.
  unfold dispatch_setup. destruct s; [apply xext_refl|].
  eapply xext_trans; [|apply xext_build_acts]. apply xext_tmod; intros y; repeat split; reflexivity.
Qed.
(* for an index out of range the state read is `none` and nothing is scheduled *)
Lemma xext_hook e i sp : xext e (dispatch_hook e i sp).
Proof.
  unfold dispatch_hook. cbv zeta. destruct (is _ SNone) eqn:E; [apply xext_with_nodes|].
  destruct (Nat.lt_ge_cases i (ntasks e)) as [Hi | Hi]; [|change (is (st e i) SNone = false) in E; rewrite st_oob in E by exact Hi; discriminate].
  eapply xext_trans; [apply xext_with_nodes|]. eapply xext_trans; [apply xext_sched; exact Hi|].
  apply xext_tmod; intros y; repeat split; reflexivity.
Qed.
Lemma xext_dispatch_hook e i sp : i < ntasks e -> xext e (dispatch_hook e i sp).
Proof. intros _. apply xext_hook. Qed.
Lemma xext_run_stmt_hooks e t ev i : xext e (run_stmt_hooks e t ev i).
Proof. unfold run_stmt_hooks. apply (fold_left_preorder xext _ _ xext_refl xext_trans). intros ee h. destruct (levt_beq _ _); [apply xext_hook | apply xext_refl]. Qed.
Lemma xext_update_data e i v : xext e (update_data e i v).
Proof. apply (update_data_inv (xext e)); [intros ee t w H; exact (xext_trans _ _ _ H (xext_set_data ee t w)) | apply xext_refl]. Qed.
Lemma st_complete_if site e i : i < ntasks e -> is_completed (st (if negb (is_completed (st e i)) then set_state site e i SCompleted else e) i) = true.
Proof. intros H. destruct (is_completed (st e i)) eqn:E; simpl; [exact E | now rewrite st_set_state_in]. Qed.
Lemma msg_allowed_ok e i a b : msg_allowed e i = true -> msg_ok e (EMsg i (st e i) a b) = true.
Proof.
  unfold msg_allowed, msg_ok. intros H. apply andb_true_iff in H as [H _]. apply andb_true_iff in H as [H1 H2].
  now rewrite is_refl, H1, H2.
Qed.

Lemma is_ready_true e i e' : is_ready e i = (true, e') -> e' = e.
Proof.
  unfold is_ready. destruct (n_kind _); try (now inversion 1).
  destruct (negb _); [now inversion 1|].
  destruct (n_else _); [|now inversion 1].
  destruct (forallb _ _); [now inversion 1|].
  destruct (existsb _ _); now inversion 1.
Qed.

(* emit: every phase but the catches only appends (hooks, message, process event) *)
Lemma xext_emit_head e i : xext e (emit_head e i).
Proof.
  unfold emit_head. eapply xext_trans; [|apply xext_upsert].
  destruct (kind e i); try apply xext_refl. destruct (is_created _); [now apply xext_add_ev | apply xext_refl].
Qed.
Lemma tk_emit_head e i t : tk (emit_head e i) t = tk e t.
Proof. unfold emit_head. destruct (kind e i); try reflexivity. destruct (is_created _); reflexivity. Qed.
Lemma xext_hooks k e1 i : xext e1 (created_hooks k e1 i) /\ xext e1 (completed_hooks k e1 i).
Proof.
  assert (Hh : forall ea t ev, xext e1 ea -> xext e1 (run_stmt_hooks ea t ev i))
    by (intros; eapply xext_trans; [eassumption | apply xext_run_stmt_hooks]).
  unfold created_hooks, completed_hooks, act_hooks. cbv zeta.
  split; destruct (nkind_beq k KAct); try destruct (climb_step _ _); try destruct (nkind_beq k KStep); repeat apply Hh; apply xext_refl.
Qed.
Lemma xext_emit_msg e2 i : xext e2 (emit_msg e2 i).
Proof. unfold emit_msg. destruct (msg_allowed e2 i) eqn:E; [apply xext_add_ev; [reflexivity | now apply msg_allowed_ok] | apply xext_refl]. Qed.
Lemma xext_emit_tail k e3 i : xext e3 (emit_tail k e3 i).
Proof.
  unfold emit_tail. destruct k; try apply xext_refl. destruct (is_completed _); [|apply xext_refl].
  eapply xext_trans; [apply xext_with_pstate | now apply xext_add_ev].
Qed.
Lemma emit_mid_spec f k e1 i :
  xext e1 (emit_mid f k e1 i) \/
  (st e1 i = SError /\ emit_mid f k e1 i = fold_left (catch_step f i) (t_catches (tk e1 i)) e1).
Proof.
  unfold emit_mid. destruct (t_evproc _); [left; apply xext_refl|].
  destruct (is_created _); [left; apply (proj1 (xext_hooks k e1 i))|]. destruct (_ && _); [left; apply (proj2 (xext_hooks k e1 i))|].
  destruct (is (st e1 i) SError) eqn:E; [right; split; [now apply is_eq | reflexivity] | left; apply xext_refl].
Qed.
(* emit = the catches of an errored task, between two quiet phases *)
Lemma emit_around f e i (Rel : eng -> eng -> Prop) :
  (forall a b c, xext a b -> Rel b c -> Rel a c) -> (forall a b c, Rel a b -> xext b c -> Rel a c) -> (forall a b, xext a b -> Rel a b) ->
  (st e i = SError -> Rel (emit_head e i) (fold_left (catch_step f i) (t_catches (tk (emit_head e i) i)) (emit_head e i))) ->
  Rel e (emit (S f) e i).
Proof.
  intros Hl Hr Hx Hc. rewrite emit_S. apply (Hl _ _ _ (xext_emit_head e i)).
  eapply Hr; [|apply xext_emit_tail]. eapply Hr; [|apply xext_emit_msg].
  destruct (emit_mid_spec f (kind e i) (emit_head e i) i) as [X | [E ->]]; [now apply Hx|].
  apply Hc. now rewrite <- (xext_st _ _ i (xext_emit_head e i)).
Qed.
Lemma xext_emit f e j : st e j <> SError -> xext e (emit f e j).
Proof.
  intros Hs. destruct f as [|f]; [apply xext_oof|].
  apply (emit_around f e j xext); [exact xext_trans | exact xext_trans | auto | intros E; contradiction].
Qed.
Definition uncaught (e : eng) (j : nat) : Prop :=
  match t_err (tk e j) with
  | None => True
  | Some code => t_catch_done (tk e j) = true \/
                 forallb (fun c : option nat => negb (match c with Some x => Nat.eqb x code | None => true end)) (t_catches (tk e j)) = true
  end.
Lemma catches_uncaught f j e : uncaught e j -> fold_left (catch_step f j) (t_catches (tk e j)) e = e.
Proof.
  intros Hu. apply fold_left_id. intros c Hc. unfold uncaught in Hu. unfold catch_step.
  destruct (t_err (tk e j)) as [code|]; [|reflexivity]. destruct Hu as [-> | Hu]; [reflexivity|].
  destruct (t_catch_done _); [reflexivity|]. rewrite forallb_forall in Hu. apply Hu, negb_true_iff in Hc.
  destruct c; [now rewrite Hc | discriminate Hc].
Qed.
Lemma xext_emit_uncaught f e j : uncaught e j -> xext e (emit f e j).
Proof.
  intros Hu. destruct f as [|f]; [apply xext_oof|].
  apply (emit_around f e j xext); [exact xext_trans | exact xext_trans | auto | intros _].
  rewrite catches_uncaught; [apply xext_refl|]. unfold uncaught. now rewrite !tk_emit_head.
Qed.

(* steps e e': e' is reached from e by the engine at work: J holds again, the task list and the trace have only grown.
   Every lemma of the calculus (steps_f, then_f) takes `steps e0 e` to `steps e0 (f e)`, so that the steps of an operation
   compose by `apply`; the few range conditions are about the base engine e0, which a chain of steps never changes.  The
   engine's own functions need none: a task that does not exist reads as `none`, is not written and starts nothing.
   A lemma f_steps is the closed form `J e -> steps e (f e)`; a lemma f_spec concludes `steps ... \/ failed ...`, for the stages of
   Task::exec, which may raise the failure flag. *)
Definition steps (e e' : eng) : Prop := J e' /\ ntasks e <= ntasks e' /\ pre e e'.
Definition G (e e' : eng) : Prop := J e' /\ ntasks e <= ntasks e'.
Lemma steps_G e e' : steps e e' -> G e e'. Proof. intros (a & b & _). now split. Qed.
Lemma steps_J e e' : steps e e' -> J e'. Proof. intros (a & _). exact a. Qed.
Lemma steps_pre e e' : steps e e' -> pre e e'. Proof. intros (_ & _ & c). exact c. Qed.
Lemma steps_lt e e' i : steps e e' -> i < ntasks e -> i < ntasks e'. Proof. intros (_ & b & _) H. lia. Qed.
Lemma steps_refl e : J e -> steps e e. Proof. intros H. split; [exact H | split; [lia | apply pre_refl]]. Qed.
Lemma steps_trans a b c : steps a b -> steps b c -> steps a c.
Proof. intros (_ & L1 & P1) (H2 & L2 & P2). split; [exact H2 | split; [lia | eapply pre_trans; eauto]]. Qed.
Lemma steps_then e0 e e' : steps e0 e -> (J e -> steps e e') -> steps e0 e'.
Proof. intros H K. exact (steps_trans _ _ _ H (K (steps_J _ _ H))). Qed.
Lemma steps_quiet e0 e e' : steps e0 e -> xext e e' -> steps e0 e'.
Proof.
  intros H X. apply (steps_then _ _ _ H). intros HJ.
  split; [eapply J_xext; eauto | split; [now apply xext_len | apply pre_ext, X]].
Qed.
Lemma steps_persist e0 e : steps e0 e -> steps e0 (persist e).
Proof. intros H. apply (steps_quiet _ _ _ H), xext_persist. Qed.
(* a step that keeps the failure flag, the queue and the number of tasks needs only its Inv lemma *)
Lemma steps_frame e0 e e' : steps e0 e -> (J e -> Inv e') -> exn e' = exn e -> queue e' = queue e -> ntasks e' = ntasks e -> pre e e' ->
  steps e0 e'.
Proof.
  intros H HI Ex Eq En Hp. apply (steps_then _ _ _ H). intros HJ. split; [|split; [lia | exact Hp]].
  split; [now apply HI | split; [rewrite Ex; now apply J_exn|]].
  intros j Hj. rewrite Eq in Hj. rewrite En. now apply (J_QR e).
Qed.
Lemma steps_write site e0 e i s : steps e0 e -> legal (st e i) s = true -> steps e0 (set_state site e i s).
Proof.
  intros H L. apply (steps_frame _ _ _ H); [intros HJ; apply Inv_set_state; [apply HJ | exact L] | apply exn_set_state | apply queue_set_state | apply ntasks_set_state | apply pre_set_state].
Qed.
Lemma steps_err site e0 e i c : steps e0 e -> legal (st e i) SError = true -> steps e0 (set_err site e i c).
Proof.
  intros H L. apply (steps_frame _ _ _ H); [intros HJ; apply Inv_set_err; [apply HJ | exact L] | apply exn_set_err | | apply ntasks_set_err | apply pre_set_err].
  unfold set_err. now rewrite queue_set_state.
Qed.
(* the revival is legal: an error is only stored with the error state (Q), and a task whose mark is not set was never revived (R) *)
Lemma steps_revive e0 e i : steps e0 e -> t_err (tk e i) <> None -> t_catch_done (tk e i) = false ->
  steps e0 (set_state 19 (set_catch_done e i) i SRunning).
Proof.
  intros H He Hcd. unfold set_catch_done.
  apply (steps_frame _ _ _ H); [|now rewrite exn_set_state | now rewrite queue_set_state | now rewrite ntasks_set_state, ntasks_tmod | eapply pre_trans; [apply (pre_tmod e i) | apply pre_set_state]].
  intros HJ. pose proof (J_Q e HJ i He) as Hs.
  apply Inv_revive; [apply Inv_tmod; [intros x; repeat split; reflexivity | apply HJ] | now rewrite st_tmod | |].
  - rewrite tk_tmod, Nat.eqb_refl. cbn [andb].
    destruct (Nat.ltb_spec i (ntasks e)) as [Hlt | Hge]; [reflexivity|]. apply st_oob in Hge. congruence.
  - intros Hin. apply (proj2 (J_R e HJ)) in Hin. congruence.
Qed.

Lemma err_range e i : t_err (tk e i) <> None -> i < ntasks e.
Proof. intros H. destruct (Nat.lt_ge_cases i (ntasks e)) as [Hi | Hi]; [exact Hi|]. unfold tk in H. now rewrite nth_overflow in H. Qed.

(* `forget t as x with H`: from here on t is a variable x of which only H is known, so that no later destruct, rewrite or
   conversion walks into t (an `emit ...`, an `exec ...`) *)
Tactic Notation "forget" constr(t) "as" ident(x) "with" ne_hyp_list(Hs) := revert Hs; generalize t; intros x; intros Hs.

(* The walk through emit / emit_error / next / review asks four things of `steps e0`, and goes through for every property K of
   engines of which they hold: `walk` is the instance steps e0, `mono` the instance pre e0. *)
Section Kept.
Variable K : eng -> Prop.
Hypothesis K_quiet : forall e e', K e -> xext e e' -> K e'.
Hypothesis K_write : forall site e i s, K e -> legal (st e i) s = true -> K (set_state site e i s).
Hypothesis K_err : forall site e i c, K e -> legal (st e i) SError = true -> K (set_err site e i c).
Hypothesis K_revive : forall e i, K e -> t_err (tk e i) <> None -> t_catch_done (tk e i) = false ->
  K (set_state 19 (set_catch_done e i) i SRunning).

(* `finish` starts the successor of a task once its children have run, which takes the task to be in the list still.  K need not
   say that the list only grows, so a lower bound n of its length goes along.  Every lemma takes `Kn n e` to `Kn n (f e)`, so that
   steps compose by `apply`; where a range condition `i < n` is to be met, the bound is first raised to the list at hand (Kn_here). *)
Definition Kn (n : nat) (e : eng) : Prop := K e /\ n <= ntasks e.
Lemma Kn_quiet n e e' : Kn n e -> xext e e' -> Kn n e'.
Proof. intros [H L] X. split; [exact (K_quiet _ _ H X) | exact (Nat.le_trans _ _ _ L (xext_len _ _ X))]. Qed.
Lemma Kn_write site n e i s : Kn n e -> legal (st e i) s = true -> Kn n (set_state site e i s).
Proof. intros [H L] Hl. split; [now apply K_write | now rewrite ntasks_set_state]. Qed.
Lemma Kn_err site n e i c : Kn n e -> legal (st e i) SError = true -> Kn n (set_err site e i c).
Proof. intros [H L] Hl. split; [now apply K_err | now rewrite ntasks_set_err]. Qed.
Lemma Kn_revive n e i : Kn n e -> t_err (tk e i) <> None -> t_catch_done (tk e i) = false ->
  Kn n (set_state 19 (set_catch_done e i) i SRunning).
Proof. intros [H L] He Hcd. split; [now apply K_revive | unfold set_catch_done; now rewrite ntasks_set_state, ntasks_tmod]. Qed.
Lemma Kn_here n e e' : Kn n e -> (Kn (ntasks e) e -> Kn (ntasks e) e') -> Kn n e'.
Proof. intros [H L] F. destruct F as [H' L']; [split; [exact H | apply le_n]|]. split; [exact H' | exact (Nat.le_trans _ _ _ L L')]. Qed.
Lemma Kn_0 e : K e -> Kn 0 e. Proof. intros H. split; [exact H | apply Nat.le_0_l]. Qed.

Lemma Kn_complete site n e i : Kn n e -> Kn n (if negb (is_completed (st e i)) then set_state site e i SCompleted else e).
Proof. intros H. destruct (is_completed (st e i)) eqn:E; [exact H|]. apply Kn_write; [exact H | now apply legal_to_terminal]. Qed.
Lemma Kn_finish site (b1 b2 : bool) n e i : Kn n e -> i < n -> Kn n (snd (finish site b1 b2 e i)).
Proof.
  intros H Hi. unfold finish. cbv zeta. pose proof (Kn_complete site _ _ i H) as HC. destruct (n_next _); [|exact HC].
  apply (Kn_quiet _ _ _ HC), xext_sched_next, st_complete_if. exact (Nat.lt_le_trans _ _ _ Hi (proj2 H)).
Qed.
Lemma Kn_is_ready n e j : Kn n e -> st e j = SPending -> Kn n (snd (is_ready e j)).
Proof.
  intros H Hs. unfold is_ready.
  destruct (n_kind (tnode e j)); auto. destruct (negb _); auto. destruct (n_else _); auto.
  destruct (forallb _ _); auto. destruct (existsb _ _); auto.
  apply Kn_write; [exact H | now rewrite Hs].
Qed.

(* One level of fuel: the four hypotheses are the induction hypothesis of `walk_n`, in the form of its conclusion. *)
Section Walk.
Variable f : nat.
Hypothesis IH_emit : forall n e i, Kn n e -> Kn n (emit f e i).
Hypothesis IH_emit_error : forall n e i, Kn n e -> Kn n (emit_error f e i).
Hypothesis IH_next : forall cv n e i, Kn n e -> Kn n (next f cv e i).
Hypothesis IH_review : forall cv from n e i, Kn n e -> Kn n (review f cv from e i).

Lemma Kn_close site n e j s : Kn n e -> legal (st e j) s = true -> Kn n (emit f (set_state site e j s) j).
Proof. intros H L. now apply IH_emit, Kn_write. Qed.
Lemma Kn_resume site cv n e j : Kn n e -> st e j = SPending ->
  Kn n (next f cv (emit f (set_state site e j SRunning) j) j).
Proof. intros H Hs. apply IH_next, Kn_close; [exact H | now rewrite Hs]. Qed.
Lemma Kn_handover cv n e i : Kn n e -> Kn n (handover f cv e i).
Proof. intros H. unfold handover. destruct (parent e i); [now apply IH_review | exact H]. Qed.

Lemma Kn_emit n e i : Kn n e -> Kn n (emit (S f) e i).
Proof.
  (* the relation is an implication: that is what lets it absorb a quiet step on either side *)
  apply (emit_around f e i (fun a b => Kn n a -> Kn n b)); [| | |intros _].
  - intros a b c X F Ha. apply F. exact (Kn_quiet _ _ _ Ha X).
  - intros a b c F X Ha. exact (Kn_quiet _ _ _ (F Ha) X).
  - intros a b X Ha. exact (Kn_quiet _ _ _ Ha X).
  - apply (fold_left_inv (Kn n)). intros ee c Hee. unfold catch_step.
    destruct (t_err (tk ee i)) as [code|] eqn:Eerr; [|exact Hee].
    destruct (t_catch_done (tk ee i)) eqn:Ecd; [exact Hee|].
    destruct (match c with Some x => Nat.eqb x code | None => true end); [|exact Hee].
    assert (H19 : Kn n (set_state 19 (set_catch_done ee i) i SRunning)) by (apply Kn_revive; [exact Hee | congruence | exact Ecd]).
    cbv zeta. destruct (children_in _ _).
    + now apply IH_review.
    + apply (Kn_quiet _ _ _ H19), xext_sched_nodes. unfold set_catch_done. rewrite ntasks_set_state, ntasks_tmod.
      apply err_range. congruence.
Qed.
Lemma Kn_emit_error n e i : Kn n e -> Kn n (emit_error (S f) e i).
Proof.
  intros H. rewrite emit_error_S. destruct (is (st e i) SError); [|exact H].
  pose proof (IH_emit _ _ i H) as H1. forget (emit f e i) as e1 with H1.
  destruct (is (st e1 i) SError); [|exact H1]. destruct (t_err (tk e1 i)) as [code|]; [|exact H1].
  destruct (parent e1 i) as [p|]; [|exact H1]. destruct (is_completed (st e1 p)) eqn:Ec; [exact H1|].
  apply IH_emit_error, Kn_err; [exact H1 | now apply legal_to_terminal].
Qed.

Lemma Kn_next_head cv n e i : Kn n e -> Kn n (snd (next_head f cv e i)).
Proof.
  intros H. unfold next_head. destruct (is_next (st e i)) eqn:En; [|exact H].
  assert (Hi : i < ntasks e) by (apply st_range; intros E; now rewrite E in En).
  apply (Kn_here _ _ _ H). clear H. intros H0.
  (* b: the model's `isact`, which reads differently in the step goal and in the act goal *)
  assert (Hskip : forall b, is (st e i) SSkipped || (b && is (st e i) SCompleted) = true ->
            Kn (ntasks e) (snd (match n_next (tnode e i) with Some nx => (true, sched_next e nx i) | None => (false, e) end))).
  { intros b Esk. destruct (n_next _); [|exact H0]. apply (Kn_quiet _ _ _ H0), xext_sched_next. revert Esk; destruct (st e i), b; (reflexivity || discriminate). }
  (* l: whatever the wake-up fold returns *)
  assert (Hloop : forall l, Kn (ntasks e) (snd l) -> Kn (ntasks e) (snd (let '(flag, e') := l in
             if forallb (fun j => is_completed (st e' j)) (children e' i) then finish 12 true flag e' i else (flag, e')))).
  { intros [flag e'] HF. cbn [snd] in HF. destruct (forallb _ _); [|exact HF]. now apply Kn_finish. }
  destruct (kind e i) eqn:Ek; [exact H0 | | |].
  { destruct (is (st e i) SRunning) eqn:ER; [|exact H0]. apply is_eq in ER.
    destruct (normal_children (tnode e i)) as [|c cs]; [apply Kn_write; [exact H0 | now rewrite ER]|].
    apply (Kn_quiet _ _ _ H0). now apply (xext_sched_nodes e (c :: cs) i). }
  (* step and act: the wake-up loop over the children *)
  all: cbv zeta; destruct (is (st e i) SRunning); [|destruct (_ || _) eqn:Esk; [eapply Hskip; exact Esk | exact H0]].
  all: apply Hloop, (fold_left_inv (fun acc => Kn (ntasks e) (snd acc))); [|exact H0]; intros [fl ee] j Hacc; cbn [snd] in Hacc.
  all: destruct (is (st ee j) SNone || is (st ee j) SRunning); [exact Hacc|].
  all: destruct (is (st ee j) SPending) eqn:EP; [|exact Hacc]; apply is_eq in EP.
  all: pose proof (Kn_is_ready _ _ j Hacc EP) as Hr; destruct (is_ready ee j) as [[|] ee1] eqn:ER; [|exact Hr].
  all: apply is_ready_true in ER; subst ee1; now apply Kn_resume.
Qed.
Lemma Kn_next_end cv i n r : Kn n (snd r) -> Kn n (next_end f cv i r).
Proof.
  destruct r as [isn e1]. cbn [snd]. intros HX. unfold next_end. destruct (is_completed (st e1 i)); [|exact HX].
  assert (HE : Kn n (emit f (update_data e1 i cv) i)) by exact (IH_emit _ _ _ (Kn_quiet _ _ _ HX (xext_update_data _ _ _))).
  forget (emit f (update_data e1 i cv) i) as e2 with HE.
  destruct (negb isn && negb (t_evproc (tk e2 i))); [now apply Kn_handover | exact HE].
Qed.
Lemma Kn_next cv n e i : Kn n e -> Kn n (next (S f) cv e i).
Proof. intros H. rewrite next_phases. now apply Kn_next_end, Kn_next_head. Qed.

Lemma Kn_step_scan cv n l : forall ee, Kn n ee ->
  Kn n (snd (step_scan f cv l ee)) /\ forall e', fst (step_scan f cv l ee) = Some e' -> Kn n e'.
Proof.
  induction l as [|j l IHl]; intros ee Hee; cbn [step_scan]; [split; [exact Hee | discriminate]|]. fold (step_scan f cv).
  destruct (is (st ee j) SPending) eqn:EP; [|now apply IHl]. apply is_eq in EP.
  pose proof (Kn_is_ready _ _ j Hee EP) as Hr. destruct (is_ready ee j) as [[|] ee1] eqn:ER; cbn [snd] in Hr; [|now apply IHl].
  split; [exact Hr|]. intros e' Heq; inversion Heq; subst e'. apply is_ready_true in ER; subst ee1.
  now apply Kn_resume.
Qed.
Lemma Kn_review_head cv n e i : Kn n e -> Kn n (snd (review_head f cv e i)).
Proof.
  intros H. unfold review_head.
  (* a task that does not exist reads as `none`: nothing is done *)
  destruct (Nat.lt_ge_cases i (ntasks e)) as [R0 | R0]; [|rewrite (st_oob _ _ R0); destruct (kind e i); exact H].
  apply (Kn_here _ _ _ H). clear H. intros H0.
  (* site and c (are all children done) differ between workflow and branch *)
  assert (Hall : forall site (c : bool), st e i = SRunning -> Kn (ntasks e) (snd (if c then (true, set_state site e i SCompleted) else (false, e)))).
  { intros site c ER. destruct c; [|exact H0]. apply Kn_write; [exact H0 | now rewrite ER]. }
  destruct (kind e i).
  - destruct (is (st e i) SRunning) eqn:ER; [|exact H0]. apply is_eq in ER. now apply Hall.
  - destruct (is (st e i) SRunning) eqn:ER; [apply is_eq in ER; now apply Hall | destruct (is (st e i) SSkipped); exact H0].
  - destruct (is (st e i) SRunning) eqn:ER.
    + fold (step_scan f cv). destruct (Kn_step_scan cv _ (children e i) e H0) as [HS1 HS2].
      destruct (step_scan f cv (children e i) e) as [[e'|] e'']; cbn [fst snd] in HS1, HS2.
      * now apply HS2.
      * destruct (forallb _ _); [|exact HS1]. now apply (Kn_finish 16).
    + destruct (is (st e i) SSkipped) eqn:Esk; [|exact H0]. destruct (n_next _); [|exact H0].
      apply (Kn_quiet _ _ _ H0), xext_sched_next. apply is_eq in Esk. now rewrite Esk.
  - destruct (is (st e i) SRunning) eqn:ER; [|exact H0]. apply is_eq in ER. cbv zeta.
    destruct (act_scan e (children e i) 0); [exact H0 | apply Kn_write; [exact H0 | now rewrite ER] |].
    destruct (Nat.eqb _ _); [|exact H0]. now apply (Kn_finish 18).
Qed.
Lemma Kn_review_end cv i before n r : Kn n (snd r) -> Kn n (review_end f cv i before r).
Proof.
  destruct r as [isr e1]. cbn [snd]. intros HX. unfold review_end. cbv zeta.
  assert (HE : Kn n (if is_completed (st e1 i) && negb (is before (st e1 i)) then emit f e1 i else e1)) by (destruct (_ && _); [now apply IH_emit | exact HX]).
  destruct isr; [now apply Kn_handover | exact HE].
Qed.
Lemma Kn_review cv from n e i : Kn n e -> Kn n (review (S f) cv from e i).
Proof.
  intros H. rewrite review_phases. destruct (t_evproc (tk e from)); [exact H|]. cbv zeta.
  apply Kn_review_end, Kn_review_head, (Kn_quiet _ _ _ H), xext_update_data.
Qed.
End Walk.

Lemma walk_n f :
  (forall n e i, Kn n e -> Kn n (emit f e i)) /\
  (forall n e i, Kn n e -> Kn n (emit_error f e i)) /\
  (forall cv n e i, Kn n e -> Kn n (next f cv e i)) /\
  (forall cv from n e i, Kn n e -> Kn n (review f cv from e i)).
Proof.
  induction f as [|f (IHe & IHee & IHn & IHr)].
  - split; [|split; [|split]]; intros; (eapply Kn_quiet; [eassumption | apply xext_oof]).
  - split; [|split; [|split]]; intros; [apply Kn_emit | apply Kn_emit_error | apply Kn_next | apply Kn_review]; assumption.
Qed.
Theorem walk_gen f :
  (forall e i, K e -> K (emit f e i)) /\
  (forall e i, K e -> K (emit_error f e i)) /\
  (forall cv e i, K e -> K (next f cv e i)) /\
  (forall cv from e i, K e -> K (review f cv from e i)).
Proof.
  destruct (walk_n f) as (a & b & c & d).
  split; [|split; [|split]]; intros; [apply (a 0) | apply (b 0) | apply (c cv 0) | apply (d cv from 0)]; now apply Kn_0.
Qed.
(* the one piece of the walk that leaves the section by itself (with then_review_end below): Wake.review_tail follows a review past its head *)
Lemma K_review_end f cv i before r : K (snd r) -> K (review_end f cv i before r).
Proof. destruct (walk_n f) as (a & _ & _ & d). intros H. now apply (Kn_review_end f a d cv i before 0), Kn_0. Qed.
End Kept.

Theorem walk f :
  (forall e0 e i, steps e0 e -> steps e0 (emit f e i)) /\
  (forall e0 e i, steps e0 e -> steps e0 (emit_error f e i)) /\
  (forall cv e0 e i, steps e0 e -> steps e0 (next f cv e i)) /\
  (forall cv from e0 e i, steps e0 e -> steps e0 (review f cv from e i)).
Proof.
  pose proof (fun e0 => walk_gen (steps e0) (steps_quiet e0) (fun site => steps_write site e0) (fun site => steps_err site e0) (steps_revive e0) f) as H.
  split; [|split; [|split]]; [intros e0 | intros e0 | intros cv e0 | intros cv from e0]; destruct (H e0) as (a & b & c & d);
    [exact a | exact b | exact (c cv) | exact (d cv from)].
Qed.
(* the trace only grows, whatever the engine state *)
Lemma mono f :
  (forall e i, pre e (emit f e i)) /\ (forall e i, pre e (emit_error f e i)) /\
  (forall cv e i, pre e (next f cv e i)) /\ (forall cv from e i, pre e (review f cv from e i)).
Proof.
  assert (H : forall e0, _) by exact (fun e0 => walk_gen (pre e0)
    (fun e e' H X => pre_trans _ _ _ H (pre_ext _ _ (proj1 X)))
    (fun site e i s H _ => pre_trans _ _ _ H (pre_set_state site e i s))
    (fun site e i c H _ => pre_trans _ _ _ H (pre_set_err site e i c))
    (fun e i H _ _ => pre_trans _ _ _ H (pre_trans _ _ _ (pre_tmod e i _) (pre_set_state 19 _ i SRunning))) f).
  split; [|split; [|split]]; intros; apply H, pre_refl.
Qed.
Definition then_emit f := proj1 (walk f).
Definition then_emit_error f := proj1 (proj2 (walk f)).
Definition then_next f := proj1 (proj2 (proj2 (walk f))).
Lemma then_close f site e0 e j s : steps e0 e -> legal (st e j) s = true -> steps e0 (emit f (set_state site e j s) j).
Proof. intros H L. now apply then_emit, steps_write. Qed.
Definition then_review_end f cv i before e0 :=
  K_review_end (steps e0) (steps_quiet e0) (fun site => steps_write site e0) (fun site => steps_err site e0) (steps_revive e0) f cv i before.
Lemma steps_is_ready e0 e j : steps e0 e -> st e j = SPending -> steps e0 (snd (is_ready e j)).
Proof. intros H Hs. apply (Kn_is_ready (steps e0) (fun site => steps_write site e0) 0); [now apply Kn_0 | exact Hs]. Qed.
Lemma main f :
  (forall e i, J e -> i < ntasks e -> G e (emit f e i)) /\
  (forall e i, J e -> i < ntasks e -> G e (emit_error f e i)) /\
  (forall cv e i, J e -> i < ntasks e -> G e (next f cv e i)) /\
  (forall cv from e i, J e -> i < ntasks e -> from < ntasks e -> G e (review f cv from e i)).
Proof. destruct (walk f) as (a & b & c & d). split; [|split; [|split]]; intros; apply steps_G; auto using steps_refl. Qed.

(* Task::exec keeps J, or it fails: the failure flag is then the only thing wrong, and the task is still open. *)
Definition failed (e e' : eng) (i : nat) : Prop :=
  exn e' = true /\ steps e (with_exn e' false) /\ is_completed (st e' i) = false.
Lemma fails e0 e i : steps e0 e -> is_completed (st e i) = false -> failed e0 (with_exn e true) i.
Proof.
  intros H Hc. split; [reflexivity | split; [|exact Hc]]. apply (steps_then _ _ _ H). intros HJ.
  apply (steps_quiet _ _ _ (steps_refl e HJ)). split; [eapply ext_trans; apply ext_with_exn | symmetry; now apply J_exn].
Qed.

(* the state kind_init finds: ready, or `none` at a dangling index, where set_state 1 has written nothing *)
Definition fresh_state (s : TaskState) : Prop := s = SReady \/ s = SNone.
(* the states exec_init and kind_init write *)
Definition init_target (s : TaskState) : bool := match s with SSkipped | SPending | SInterrupt | SReady => true | _ => false end.
Lemma legal_fresh o n : fresh_state o -> init_target n = true -> legal o n = true.
Proof. intros [-> | ->]; now destruct n. Qed.
Lemma fresh_open s : fresh_state s -> is_completed s = false.
Proof. intros [-> | ->]; reflexivity. Qed.
Lemma steps_init_write site e0 e e1 i s : steps e0 e -> xext e e1 -> fresh_state (st e i) -> init_target s = true ->
  steps e0 (set_state site e1 i s).
Proof. intros H X Hs Hn. apply steps_write; [exact (steps_quiet _ _ _ H X) | rewrite (xext_st _ _ i X); now apply legal_fresh]. Qed.
Lemma eval_if_spec e0 e i c k : steps e0 e -> fresh_state (st e i) -> steps e0 (k e) ->
  steps e0 (eval_if e i c k) \/ failed e0 (eval_if e i c k) i.
Proof.
  intros H Hs Hk. unfold eval_if. destruct c as [b|]; [|now left]. destruct (eval_cond e i b) as [[|]|].
  - now left.
  - left. apply (steps_init_write 2 e0 e e); auto using xext_refl.
  - right. apply fails; [exact H | now apply fresh_open].
Qed.
Lemma kind_init_spec e0 e i : steps e0 e -> fresh_state (st e i) -> steps e0 (kind_init e i) \/ failed e0 (kind_init e i) i.
Proof.
  intros H Hs.
  assert (Xs : forall e1, xext e1 (dispatch_setup (set_timeouts (set_catches e1 i (n_catches (tnode e i))) i (n_timeouts (tnode e i))) i (n_setup (tnode e i)))).
  { intros e1. eapply xext_trans; [|apply xext_dispatch_setup]. eapply xext_trans; apply xext_tmod; intros y; repeat split; reflexivity. }
  unfold kind_init. cbv zeta. destruct (n_kind (tnode e i)).
  - left. exact (steps_quiet _ _ _ H (xext_dispatch_setup _ _ _)).
  - pose proof (xext_set_silent e i true) as X.
    destruct (negb (Nat.eqb (length (n_needs (tnode e i))) 0)); [left; apply (steps_init_write 3 e0 e); auto|].
    destruct (n_if (tnode e i)) as [b|].
    + destruct (eval_cond (set_silent e i true) i b) as [[|]|].
      * left. exact (steps_quiet _ _ _ H X).
      * left. apply (steps_init_write 2 e0 e); auto.
      * right. apply fails; [exact (steps_quiet _ _ _ H X) | rewrite (xext_st _ _ i X); now apply fresh_open].
    + destruct (negb (n_else (tnode e i))); [left; apply (steps_init_write 2 e0 e); auto|].
      destruct (Nat.ltb 1 _); left; [apply (steps_init_write 3 e0 e); auto | exact (steps_quiet _ _ _ H X)].
  - apply eval_if_spec; auto. exact (steps_quiet _ _ _ H (Xs e)).
  - apply eval_if_spec; auto.
    pose proof (xext_trans _ _ _ (Xs e) (xext_set_silent _ i true)) as X5.
    destruct (sp_u (n_spec (tnode e i))); [apply (steps_init_write 4 e0 e _ i _ H (Xs e) Hs); auto | ..]; apply (steps_init_write 5 e0 e _ i _ H X5 Hs); auto.
Qed.

Lemma init_spec f e0 e i : steps e0 e -> st e i = SNone -> steps e0 (exec_init f e i) \/ failed e0 (exec_init f e i) i.
Proof.
  intros H EN. unfold exec_init.
  assert (Hs : steps e0 (set_state 1 (set_data e i (inputs e i)) i SReady)).
  { apply (steps_init_write 1 e0 e); auto using xext_set_data. right; exact EN. }
  assert (Fs : fresh_state (st (set_state 1 (set_data e i (inputs e i)) i SReady) i)).
  { destruct (st_set_state_same 1 (set_data e i (inputs e i)) i SReady) as [-> | [_ ->]]; [now left | right]. now rewrite (xext_st _ _ i (xext_set_data e i _)). }
  pose proof (kind_init_spec _ _ i Hs Fs) as K. forget (kind_init (set_state 1 (set_data e i (inputs e i)) i SReady) i) as ea with K.
  cbv zeta. destruct K as [K | F].
  - left. rewrite (J_exn _ (steps_J _ _ K)). destruct (negb _); [now apply then_emit | exact K].
  - right. now rewrite (proj1 F).
Qed.
Lemma steps_wake f e0 e1 i : steps e0 e1 -> steps e0 (exec_wake f e1 i).
Proof.
  intros H1. unfold exec_wake. destruct (is (st e1 i) SPending) eqn:EP; [|exact H1]. apply is_eq in EP.
  pose proof (steps_is_ready _ _ i H1 EP) as Hr. destruct (is_ready e1 i) as [[|] ea] eqn:ER; [|exact Hr].
  apply is_ready_true in ER; subst ea. apply then_close; [exact H1 | now rewrite EP].
Qed.
Lemma xext_act_run er i : i < ntasks er -> xext er (act_run er i).
Proof.
  (* the lets of act_run, opened by cbv zeta, are picked up again from the goal: x is er1, the engine once the generated acts are
     built; er0 is the second er0, the act with its silent flag and its params written (Xa: the first er0 is quiet) *)
  intros Hi. unfold act_run. cbv zeta.
  match goal with |- xext er (sched_nodes ?x _ i) => assert (X1 : xext er x); [|eapply xext_trans; [exact X1 | apply xext_sched_nodes; pose proof (xext_len _ _ X1); lia]] end.
  match goal with |- xext er (match _ with UBlock => if _ then ?y else _ | _ => _ end) => set (er0 := y) end.
  assert (X0 : xext er er0).
  { unfold er0. match goal with |- xext er (if _ then _ else ?z) => assert (Xa : xext er z) by (destruct (sp_u _); try apply xext_refl; apply xext_set_silent) end.
    destruct (n_isset _); [|exact Xa]. eapply xext_trans; [exact Xa|]. eapply xext_trans; [apply xext_set_exposed | apply xext_update_data]. }
  clearbody er0. destruct (sp_u _); try exact X0; try (eapply xext_trans; [exact X0 | apply xext_build_acts]).
  destruct (n_isset _); [exact X0|]. eapply xext_trans; [exact X0 | apply xext_build_acts].
Qed.
Lemma steps_run e0 er i : steps e0 er -> st er i = SRunning -> steps e0 (kind_run er i).
Proof.
  intros Hr Hs. assert (Ri : i < ntasks er) by (apply st_range; now rewrite Hs). unfold kind_run. destruct (kind er i).
  - destruct (normal_children (tnode er i)) as [|c cs]; [apply steps_write; [exact Hr | now rewrite Hs]|].
    apply (steps_quiet _ _ _ Hr). now apply xext_sched_nodes.
  - exact Hr.
  - apply (steps_quiet _ _ _ Hr). now apply xext_sched_nodes.
  - apply (steps_quiet _ _ _ Hr). now apply xext_act_run.
Qed.
Lemma go_spec f cv e0 e1 i : steps e0 e1 -> steps e0 (exec_go f cv e1 i) \/ failed e0 (exec_go f cv e1 i) i.
Proof.
  intros H1. unfold exec_go, exec_fails.
  assert (S7 : st e1 i = SReady -> st (set_state 7 e1 i SRunning) i = SRunning) by (intros ER; apply st_set_state_in, st_range; now rewrite ER).
  destruct (nkind_beq (kind e1 i) KAct && is (st e1 i) SReady && is_fail (sp_u (n_spec (tnode e1 i)))) eqn:Efail.
  - right. apply andb_true_iff in Efail as [Ef _]. apply andb_true_iff in Ef as [_ ER]. apply is_eq in ER.
    apply fails; [apply steps_write; [exact H1 | now rewrite ER] | now rewrite S7].
  - left. apply then_next. destruct (is (st e1 i) SReady) eqn:ER; [|exact H1]. apply is_eq in ER.
    apply then_emit, steps_run; [apply steps_write; [exact H1 | now rewrite ER] | now apply S7].
Qed.
(* step_queue enters exec on an open task only *)
Lemma exec_spec f cv e i : J e -> is_completed (st e i) = false ->
  steps e (exec f cv e i) \/ failed e (exec f cv e i) i.
Proof.
  intros HJ Hc. rewrite exec_stages, Hc. unfold exec_rest.
  assert (H1 : steps e (if is (st e i) SNone then exec_init f e i else e) \/ failed e (if is (st e i) SNone then exec_init f e i else e) i).
  { destruct (is (st e i) SNone) eqn:EN; [apply is_eq in EN; apply init_spec; auto; now apply steps_refl | left; now apply steps_refl]. }
  forget (if is (st e i) SNone then exec_init f e i else e) as e1 with H1. destruct H1 as [H1 | F].
  - rewrite (J_exn _ (steps_J _ _ H1)). now apply go_spec, steps_wake.
  - rewrite (proj1 F). now right.
Qed.

(* The error path of Scheduler::next is about a variable e1 and not about `exec ...`: with exec in the context a
   conversion (between set_err and its unfolding is enough) leads the kernel to compare two unfolded copies of its body. *)
Lemma failed_steps e e1 i : failed e e1 i ->
  steps e (emit_error (fuel_of (with_exn e1 false)) (set_err 21 (with_exn e1 false) i 0) i).
Proof. intros (_ & H & Hc). apply then_emit_error, steps_err; [exact H | now apply legal_to_terminal]. Qed.
Lemma exec_or_fail_steps e i : J e -> is_completed (st e i) = false -> steps e (exec_or_fail e i).
Proof.
  intros HJ Hc. unfold exec_or_fail. cbv zeta.
  pose proof (exec_spec (fuel_of e) [] e i HJ Hc) as H1. forget (exec (fuel_of e) [] e i) as e1 with H1. destruct H1 as [H1 | F].
  - now rewrite (J_exn _ (steps_J _ _ H1)).
  - rewrite (proj1 F). now apply failed_steps.
Qed.
Lemma step_queue_steps e : J e -> steps e (step_queue e).
Proof.
  intros HJ. unfold step_queue. destruct (queue e) as [|i q] eqn:Eq; [now apply steps_refl|].
  assert (H0 : steps e (add_ev (with_queue e q) (EPop i))).
  { apply (steps_quiet _ _ _ (steps_refl e HJ)). eapply xext_trans; [apply xext_with_queue | now apply xext_add_ev].
    rewrite Eq. now apply incl_tl, incl_refl. }
  forget (add_ev (with_queue e q) (EPop i)) as e0 with H0.
  destruct (is_completed (st e0 i)) eqn:Ec; [exact H0|].
  apply steps_persist, (steps_then _ _ _ H0). intros J0. now apply exec_or_fail_steps.
Qed.

