(* model/Multi.v: processes run side by side do not interfere (C13: a component of the product is the process run alone),
   what an empty report of the observation checkers says of a run of the implementation (C15, C17), and the retention
   rule in the product (C17). *)
From Coq Require Import List ZArith Bool.
Import ListNotations.
From Acts.Gen Require Import GenState.
From Acts.Model Require Import Engine Multi.
From Acts.Proofs Require Import EngineBasics ListFacts ImageProofs.

Lemma sstep_length s x : length (sstep s x) = length s.
Proof. destruct x; cbn; [apply upd_length | apply map_length]. Qed.
Theorem isolation xs : forall s p, p < length s -> nth p (srun s xs) deng = fold_left apply_op (proj p xs) (nth p s deng).
Proof.
  induction xs as [|x xs IH]; intros s p Hp; cbn [srun fold_left proj]; [reflexivity|].
  change (fold_left sstep xs (sstep s x)) with (srun (sstep s x) xs).
  rewrite IH by (rewrite sstep_length; exact Hp).
  destruct x as [q o|o]; cbn [sstep proj].
  - rewrite upd_nth. destruct (Nat.eqb_spec p q) as [->|N].
    + rewrite Nat.eqb_refl. apply Nat.ltb_lt in Hp. rewrite Hp. reflexivity.
    + destruct (Nat.eqb_spec q p); [congruence|]. reflexivity.
  - rewrite (nth_map_lt _ _ deng) by exact Hp. reflexivity.
Qed.
Corollary isolation_order xs ys s p : p < length s -> proj p xs = proj p ys -> nth p (srun s xs) deng = nth p (srun s ys) deng.
Proof. intros Hp E. rewrite !isolation by exact Hp. now rewrite E. Qed.

(* A checker's report is a concatenation of clauses, each empty or one code.  Which code plays no part.
   Every proof about a checker starts by generalising the least of its codes (the others are its successors):
   written out, the numerals (unary, above 1500) make each tactic that walks the goal cost seconds. *)
Lemma unless_nil {A} (b : bool) (c : A) : (if b then [] else [c]) = [] -> b = true.
Proof. destruct b; [reflexivity | discriminate]. Qed.
Lemma when_nil {A} (b : bool) (c : A) : (if b then [c] else []) = [] -> b = false.
Proof. destruct b; [discriminate | reflexivity]. Qed.
Theorem call_check_sound o : call_check o = [] -> co_missing o = false ->
  co_inputs_ok o = true /\
  match co_child_end o with
  | None => co_act_ends o = [] /\ co_parent_end o = None
  | Some (s, t) =>
      co_outs_ok o = true /\
      (co_act_ends o = [] -> co_quiescent o = false) /\
      (forall s' t', In (s', t') (co_act_ends o) -> co_act_ends o = [(s', t')] /\ s' = expected_end o s /\ (t <= t')%Z) /\
      (forall tp, co_parent_end o = Some tp -> (t <= tp)%Z)
  end.
Proof.
  unfold call_check. generalize 1501. intros c H Hm. rewrite Hm in H.
  apply app_eq_nil in H as [H1 H]. split; [exact (unless_nil _ _ H1)|].
  destruct (co_child_end o) as [[s t]|]; apply app_eq_nil in H as [H2 H].
  - apply app_eq_nil in H as [H3 H4]. split; [exact (unless_nil _ _ H3)|]. split; [|split].
    + intros E. rewrite E in H2. exact (when_nil _ _ H2).
    + intros s' t' Hin. destruct (co_act_ends o) as [|x [|y r]]; [destruct Hin | | destruct x; discriminate].
      destruct Hin as [-> | []]. apply app_eq_nil in H2 as [A B]. split; [reflexivity|]. split.
      * now apply unless_nil, internal_TaskState_dec_bl in A.
      * now apply when_nil, Z.ltb_ge in B.
    + intros tp E. rewrite E in H4. now apply when_nil, Z.ltb_ge in H4.
  - split; [destruct (co_act_ends o) | destruct (co_parent_end o)]; [reflexivity | discriminate | discriminate | reflexivity].
Qed.
Theorem caught_check_sound o : caught_check o = [] ->
  co_inputs_ok o = true /\ exists t t1 t2, co_child_end o = Some (SError, t) /\ co_act_ends o = [(SError, t1); (SCompleted, t2)] /\
                                          (t <= t1)%Z /\ (t1 <= t2)%Z /\ co_act_open o = false.
Proof.
  unfold caught_check. generalize 1504. intros c H. apply app_eq_nil in H as [H1 H].
  split; [exact (unless_nil _ _ H1)|].
  destruct (co_child_end o) as [[[] t]|]; try discriminate.
  destruct (co_act_ends o) as [|[[] t1] r]; try discriminate. destruct r as [|[[] t2] r]; try discriminate. destruct r; [|discriminate].
  apply unless_nil in H. apply andb_true_iff in H as [H E3]. apply andb_true_iff in H as [E1 E2].
  apply Z.leb_le in E1, E2. apply negb_true_iff in E3. eauto 10.
Qed.
Theorem forced_check_sound o : forced_check o = [] -> co_inputs_ok o = true /\ exists x, co_act_ends o = [x].
Proof.
  unfold forced_check. generalize 1504. intros c H. apply app_eq_nil in H as [H1 H2].
  split; [exact (unless_nil _ _ H1)|].
  destruct (co_act_ends o) as [|x [|y r]]; try discriminate. now exists x.
Qed.
Theorem call_check_missing o : call_check o = [] -> co_missing o = true -> co_act_open o = false.
Proof. unfold call_check. generalize 1501. intros c H Hm. rewrite Hm in H. exact (when_nil _ _ H). Qed.
Theorem return_state_cases s :
  (s = SError -> return_state s = SError) /\ (s = SAborted -> return_state s = SAborted) /\ (s = SSkipped -> return_state s = SSkipped) /\
  (s <> SError -> s <> SAborted -> s <> SSkipped -> return_state s = SCompleted) /\ is_completed (return_state s) = true.
Proof. destruct s; cbn; repeat split; intros; try congruence; reflexivity. Qed.
Theorem expected_end_cases o s :
  (co_unsatisfied o = false -> expected_end o s = return_state s) /\
  (co_unsatisfied o = true -> expected_end o s = SError).
Proof. unfold expected_end. split; intros ->; reflexivity. Qed.

Theorem ret_check_sound o : ret_check o = [] ->
  (ro_ended o = true -> ro_refused o = true /\
     (ro_keep o = false -> ro_procrow o = None /\ ro_taskrows o = 0) /\
     (ro_keep o = true -> (exists s, ro_procrow o = Some s /\ is_completed s = true) /\ ro_taskrows o = ro_created o /\ ro_openrows o = 0)) /\
  (ro_ended o = false -> (exists s, ro_procrow o = Some s /\ is_completed s = false) /\ ro_taskrows o = ro_created o).
Proof.
  unfold ret_check. generalize 1701. intros c H.
  destruct (ro_ended o); (split; [|discriminate]) || (split; [discriminate|]); intros _; apply app_eq_nil in H as [H1 H].
  - split; [exact (unless_nil _ _ H1)|].
    destruct (ro_keep o); (split; [|discriminate]) || (split; [discriminate|]); intros _; apply app_eq_nil in H as [A B].
    + apply app_eq_nil in B as [B C]. apply unless_nil, Nat.eqb_eq in B, C. repeat split; [|assumption..].
      destruct (ro_procrow o) as [s|]; [|discriminate]. apply unless_nil in A. eauto.
    + apply unless_nil, Nat.eqb_eq in B. split; [destruct (ro_procrow o); [discriminate | reflexivity] | exact B].
  - apply unless_nil, Nat.eqb_eq in H. split; [|exact H].
    destruct (ro_procrow o) as [s|]; [|discriminate]. apply when_nil in H1. eauto.
Qed.

Definition dropped (e : eng) : Prop := is_completed (pstate e) = true -> rows e = [] /\ prow e = None.
Lemma retire_dropped e : dropped (retire false e).
Proof. unfold dropped, retire. destruct (is_completed (pstate e)) eqn:E; cbn; [auto | intros H; cbn in H; congruence]. Qed.
Lemma rstep_length keep s x : length (rstep keep s x) = length s.
Proof. destruct x; simpl; [apply upd_length | apply map_length]. Qed.
Theorem retention_drop xs : forall s, (forall p, p < length s -> dropped (nth p s deng)) ->
  forall p, p < length (rrun false s xs) -> dropped (nth p (rrun false s xs) deng).
Proof.
  intros s. apply (fold_left_inv (fun s => forall p, p < length s -> dropped (nth p s deng))).
  intros s' x H q Hq. rewrite rstep_length in Hq. destruct x as [r o | o]; cbn [rstep].
  - rewrite upd_nth. destruct (Nat.eqb q r && Nat.ltb r (length s')); [apply retire_dropped | now apply H].
  - rewrite (nth_map_lt _ _ deng) by exact Hq. apply retire_dropped.
Qed.
Lemma rrun_keep s xs : rrun true s xs = srun s xs.
Proof. reflexivity. Qed.
Theorem retention_keep xs : forall s, (forall p, p < length s -> image_ok (nth p s deng)) ->
  forall p, p < length s -> image_ok (nth p (rrun true s xs) deng).
Proof.
  intros s H p Hp. rewrite rrun_keep, (isolation xs s p Hp).
  apply ops_image, H, Hp.
Qed.
Theorem retention_others keep s r o q : q <> r -> nth q (rstep keep s (SOp r o)) deng = nth q s deng.
Proof. intros H. cbn [rstep]. rewrite upd_nth. destruct (Nat.eqb_spec q r); [contradiction | reflexivity]. Qed.
