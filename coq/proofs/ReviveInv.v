(* The revival part of the engine invariant: the trace holds at most one revival (error -> running)
   per task, and a task that was revived carries the `catch done` mark (hook.rs: $is_catch_processed). *)
From Coq Require Import List ZArith Bool.
Import ListNotations.
From Acts.Gen Require Import GenState.
From Acts.Model Require Import Engine Oracles.
From Acts.Proofs Require Import ListFacts EngineBasics.

Fixpoint revivals (tr : list ev) : list nat :=
  match tr with
  | [] => []
  | ETrans t o n _ _ :: r => if revive o n then t :: revivals r else revivals r
  | _ :: r => revivals r
  end.
Definition R (e : eng) : Prop :=
  NoDup (revivals (trace e)) /\ (forall t, In t (revivals (trace e)) -> t_catch_done (tk e t) = true).

Lemma revivals_app a b : revivals (a ++ b) = revivals a ++ revivals b.
Proof.
  induction a as [|x a IH]; simpl; auto. destruct x; simpl; rewrite ?IH; auto.
  destruct (revive _ _); simpl; now rewrite ?IH.
Qed.
Lemma revivals_noncore l : forallb (fun x => negb (is_trans x)) l = true -> revivals l = [].
Proof.
  induction l as [|x l IH]; simpl; auto. intros H. apply andb_true_iff in H as [H1 H2].
  destruct x; simpl in *; try discriminate; auto.
Qed.
Lemma legal_not_revive o n : legal o n = true -> revive o n = false.
Proof. destruct o, n; simpl; intros; try discriminate; reflexivity. Qed.

Lemma R_grow e e' l : trace e' = trace e ++ l -> revivals l = [] ->
  (forall t, t_catch_done (tk e t) = true -> t_catch_done (tk e' t) = true) -> R e -> R e'.
Proof.
  intros Tl Fn K (H1 & H2). unfold R. rewrite Tl, revivals_app, Fn, app_nil_r. split; [exact H1 | intros t Hin; apply K, H2, Hin].
Qed.
Lemma R_ext e e' : ext e e' -> R e -> R e'.
Proof.
  intros X. pose proof X as (_ & (l & Tl & Fl & _) & _). apply (R_grow e e' l Tl (revivals_noncore l Fl)).
  intros t. now rewrite (ext_cd _ _ t X).
Qed.
Lemma cd_set_state site e i s t : t_catch_done (tk (set_state site e i s) t) = t_catch_done (tk e t).
Proof. now apply set_state_keeps. Qed.
Lemma R_set_state site e i s : R e -> revive (st e i) s = false -> R (set_state site e i s).
Proof.
  intros HR L. destruct (set_state_cases site e i s) as [-> | [_ Tr]]; [exact HR|].
  apply (R_grow _ _ _ Tr); [cbn [revivals]; now rewrite L | intros t; now rewrite cd_set_state | exact HR].
Qed.
(* the revival: hook.rs sets the mark before it writes the state *)
Lemma R_set_state_revive site e i s :
  R e -> t_catch_done (tk e i) = true -> ~ In i (revivals (trace e)) -> R (set_state site e i s).
Proof.
  intros (H1 & H2) Hcd Hnew.
  destruct (set_state_cases site e i s) as [-> | [_ Tr]]; [now split|].
  unfold R. rewrite Tr, revivals_app. simpl.
  destruct (revive (st e i) s).
  - split.
    + apply NoDup_snoc; auto.
    + intros t Hin. rewrite cd_set_state. apply in_app_or in Hin as [Hin | [E | []]]; [now apply H2 | now subst].
  - rewrite app_nil_r. split; [exact H1|]. intros t Hin. rewrite cd_set_state. now apply H2.
Qed.
Lemma R_tmod e i f : (forall x, t_catch_done x = true -> t_catch_done (f x) = true) -> R e -> R (tmod e i f).
Proof.
  intros K. apply (R_grow e _ []); [symmetry; apply app_nil_r | reflexivity|]. intros t. rewrite tk_tmod.
  destruct (Nat.eqb_spec t i); cbn [andb]; [subst|auto]. destruct (Nat.ltb _ _); auto.
Qed.
Lemma R_add_fire e t on now start limit : R e -> R (add_ev e (EFire t on now start limit)).
Proof. apply (R_grow e _ [EFire t on now start limit]); [reflexivity | reflexivity | auto]. Qed.

Lemma revivals_In tr t : In t (revivals tr) <-> exists o n a s, In (ETrans t o n a s) tr /\ revive o n = true.
Proof.
  split.
  - induction tr as [|x tr IH]; [intros []|]. intros H.
    assert (Hx : (exists o n a s, x = ETrans t o n a s /\ revive o n = true) \/ In t (revivals tr)).
    { destruct x as [| t' o n a s | | | | | |]; try (now right). cbn [revivals] in H. destruct (revive o n) eqn:Er; [|now right].
      destruct H as [<- | H]; [left; now exists o, n, a, s | now right]. }
    destruct Hx as [(o & n & a & s & -> & Hr) | Hx]; [exists o, n, a, s; split; [now left | exact Hr]|].
    destruct (IH Hx) as (o & n & a & s & Hin & Hr). exists o, n, a, s. split; [now right | exact Hr].
  - intros (o & n & a & s & Hin & Hr). apply in_split in Hin as (l1 & l2 & ->).
    rewrite revivals_app. cbn [revivals]. rewrite Hr. apply in_or_app. right. now left.
Qed.
Lemma no_second_revival tr t l1 l2 l3 a1 s1 a2 s2 :
  NoDup (revivals tr) -> tr = l1 ++ ETrans t SError SRunning a1 s1 :: l2 ++ ETrans t SError SRunning a2 s2 :: l3 -> False.
Proof.
  intros Hn ->. rewrite revivals_app in Hn. simpl in Hn. rewrite revivals_app in Hn. simpl in Hn.
  apply NoDup_remove_2 in Hn. apply Hn. rewrite !in_app_iff. right. right. now left.
Qed.
