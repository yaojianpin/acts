(* model/Tree.v (build.rs), C20: the node table built from a model lists the built constructs in declaration order, each
   id exactly once, so a model with an id twice has no table and its deploy is refused.  One induction over the builder
   (`tree_grows`) serves whatever is read off the nodes; TreeLevels reads kind and nesting depth. *)
From Coq Require Import List Arith Bool.
Import ListNotations.
From Acts.Model Require Import Engine Serde Tree.
From Acts.Proofs Require Import ListFacts SerdeProofs.

(* the ids of the nodes build.rs creates for a construct, in creation order *)
Fixpoint ids_step (s : step) : list nat :=
  match s with
  | Step id _ _ _ _ _ branches acts catches tmos =>
      id :: flat_map ids_branch branches
         ++ flat_map ids_act acts ++ flat_map ids_catch catches ++ flat_map ids_tmo tmos
  end
with ids_branch (b : branch) : list nat :=
  match b with Branch id _ _ _ steps => id :: flat_map ids_step steps end
with ids_act (a : act) : list nat :=
  match a with Act id _ _ _ _ _ _ catches tmos => id :: flat_map ids_catch catches ++ flat_map ids_tmo tmos end
with ids_catch (c : catch) : list nat := match c with Catch _ steps => flat_map ids_step steps end
with ids_tmo (x : tmo) : list nat := match x with Tmo _ _ steps => flat_map ids_step steps end.

Definition tids (t : tbl) : list nat := map n_id t.
Definition ND (t : tbl) : Prop := NoDup (tids t).

(* what the builder never changes of a node once it is in the table *)
Definition nkey (n : node) := (n_id n, n_kind n, n_level n).
Lemma nkey_tmod t i f : (forall x, nkey (f x) = nkey x) -> map nkey (tmod t i f) = map nkey t.
Proof.
  intros Hf. unfold tmod. revert i. induction t as [|x t IH]; intros [|i]; simpl; auto.
  - now rewrite Hf.
  - f_equal. specialize (IH i). destruct t as [|y t']; [destruct i; reflexivity|]. exact IH.
Qed.
Lemma nkey_link t parent prev me lvl k : map nkey (link t parent prev me lvl k) = map nkey t.
Proof. unfold link. destruct (Nat.eqb _ _); now apply nkey_tmod. Qed.
Lemma nkey_onext (nxt : option nat) m t : map nkey (match nxt with Some target => explicit_next t m target | None => t end) = map nkey t.
Proof. destruct nxt; [|reflexivity]. unfold explicit_next. destruct (index_of _ _ _); [now apply nkey_tmod | reflexivity]. Qed.

Lemma map_via {B} (h : nat * nkind * nat -> B) t1 t2 : map nkey t2 = map nkey t1 -> map (fun n => h (nkey n)) t2 = map (fun n => h (nkey n)) t1.
Proof. intros K. now rewrite <- (map_map nkey h t2), <- (map_map nkey h t1), K. Qed.

Lemma has_id_In t id : has_id t id = false -> ~ In id (tids t).
Proof.
  unfold has_id, tids. intros H Hin. apply in_map_iff in Hin as (n & E & Hn).
  assert (existsb (fun n0 => Nat.eqb (n_id n0) id) t = true) by (apply existsb_exists; exists n; split; auto; subst; apply Nat.eqb_refl).
  congruence.
Qed.
Lemma ofold_none {S X} (g : X -> S -> option S) l : ofold g l None = None.
Proof. unfold ofold. induction l; simpl; auto. Qed.
Lemma otbl_some {A} (r : option (tbl * A)) t : otbl r = Some t -> exists a, r = Some (t, a).
Proof. destruct r as [[t' a]|]; simpl; intros H; inversion H; eauto. Qed.
Lemma with_me_some me r t' m : with_me me r = Some (t', m) -> r = Some t'.
Proof. destruct r; simpl; intros H; inversion H; reflexivity. Qed.

Section Rows.
Context {A : Type} (g : nat -> nkind -> nat -> A).
Definition row (n : node) : A := g (n_id n) (n_kind n) (n_level n).
Definition grows (t t' : tbl) (r : list A) : Prop := map row t' = map row t ++ r /\ (ND t -> ND t').

Lemma grows_refl t : grows t t [].
Proof. split; [now rewrite app_nil_r | auto]. Qed.
Lemma grows_trans t t1 t2 r1 r2 : grows t t1 r1 -> grows t1 t2 r2 -> grows t t2 (r1 ++ r2).
Proof. intros [E1 N1] [E2 N2]. split; [now rewrite E2, E1, app_assoc | auto]. Qed.
Lemma grows_frame t t1 t2 r : map nkey t2 = map nkey t1 -> grows t t1 r -> grows t t2 r.
Proof.
  intros K [E N]. unfold grows, ND, tids.
  rewrite (map_via (fun '(i, k, l) => g i k l) _ _ K : map row t2 = map row t1), (map_via (fun x => fst (fst x)) _ _ K : map n_id t2 = map n_id t1).
  now split.
Qed.
Lemma grows_new t n : has_id t (n_id n) = false -> grows t (t ++ [n]) [row n].
Proof. intros H. split; [apply map_app | intros N; unfold ND, tids; rewrite map_app; apply NoDup_snoc, has_id_In; assumption]. Qed.

Lemma ofold_grows {S X} (tb : S -> tbl) (b : X -> S -> option S) (sp : X -> list A) l :
  (forall x st st', b x st = Some st' -> grows (tb st) (tb st') (sp x)) ->
  forall st st', ofold b l (Some st) = Some st' -> grows (tb st) (tb st') (flat_map sp l).
Proof.
  intros Hb. induction l as [|x l IH]; intros st st' H; unfold ofold in *; simpl in *.
  - inversion H. apply grows_refl.
  - destruct (b x st) as [st1|] eqn:E; [exact (grows_trans _ _ _ _ _ (Hb _ _ _ E) (IH _ _ H))|].
    fold (ofold b l None) in H. rewrite ofold_none in H. discriminate.
Qed.

(* a family of lists that follows the recursion of the builder *)
Variables (fs : nat -> step -> list A) (fb : nat -> branch -> list A) (fa : nat -> act -> list A)
          (fc : nat -> catch -> list A) (ft : nat -> tmo -> list A).
Hypothesis fs_eq : forall lvl id sif nxt ins outs setup branches acts catches tmos,
  fs lvl (Step id sif nxt ins outs setup branches acts catches tmos) =
  [g id KStep lvl] ++ flat_map (fb (S lvl)) branches ++ flat_map (fa (S lvl)) acts ++ flat_map (fc (S lvl)) catches ++ flat_map (ft (S lvl)) tmos.
Hypothesis fb_eq : forall lvl id bif els needs steps, fb lvl (Branch id bif els needs steps) = [g id KBranch lvl] ++ flat_map (fs (S lvl)) steps.
Hypothesis fa_eq : forall lvl id aif spec ins outs params setup catches tmos,
  fa lvl (Act id aif spec ins outs params setup catches tmos) = [g id KAct lvl] ++ flat_map (fc (S lvl)) catches ++ flat_map (ft (S lvl)) tmos.
Hypothesis fc_eq : forall lvl on steps, fc lvl (Catch on steps) = flat_map (fs lvl) steps.
Hypothesis ft_eq : forall lvl on lim steps, ft lvl (Tmo on lim steps) = flat_map (fs lvl) steps.

(* the stages of build_step / build_act, for any step builder that appends what fs says *)
Section Stages.
Variable bs : step_builder.
Hypothesis Hbs : forall s t parent prev lvl k t' me, bs s t parent prev lvl k = Some (t', me) -> grows t t' (fs lvl s).
Lemma steps_under_grows me lvl k steps t t' : steps_under bs me lvl k steps t = Some t' -> grows t t' (flat_map (fs lvl) steps).
Proof.
  unfold steps_under. intros H. apply otbl_some in H as (a & H).
  apply (ofold_grows fst _ (fs lvl)) in H; [exact H|]. intros x [t1 p1] [t2 p2]. apply Hbs.
Qed.
Lemma catches_under_grows me lvl catches r t' : catches_under bs me lvl catches r = Some t' ->
  exists t, r = Some t /\ grows t t' (flat_map (fc lvl) catches).
Proof.
  unfold catches_under. destruct r as [t|]; [|rewrite ofold_none; discriminate]. intros H. exists t. split; auto.
  apply (ofold_grows (fun x => x) _ (fc lvl)) in H; [exact H|].
  intros [on steps] t1 t2. rewrite fc_eq. apply steps_under_grows.
Qed.
Lemma tmos_under_grows me lvl tmos r t' : tmos_under bs me lvl tmos r = Some t' ->
  exists t, r = Some t /\ grows t t' (flat_map (ft lvl) tmos).
Proof.
  unfold tmos_under. destruct r as [t|]; [|rewrite ofold_none; discriminate]. intros H. exists t. split; auto.
  apply (ofold_grows (fun x => x) _ (ft lvl)) in H; [exact H|].
  intros [on lim steps] t1 t2. rewrite ft_eq. apply steps_under_grows.
Qed.
End Stages.
Lemma acts_under_grows ba me lvl acts r t' :
  (forall a t parent prev t' me, ba a t parent prev lvl = Some (t', me) -> grows t t' (fa lvl a)) ->
  acts_under ba me lvl acts r = Some t' -> exists t, r = Some t /\ grows t t' (flat_map (fa lvl) acts).
Proof.
  intros Hba. unfold acts_under. destruct r as [t|]; [|rewrite ofold_none; discriminate]. intros H. exists t. split; auto.
  apply otbl_some in H as (a & H). apply (ofold_grows fst _ (fa lvl)) in H; [exact H|]. intros x [ta pa] [tb pb]. apply Hba.
Qed.
Lemma branches_under_grows bb me lvl branches t t' :
  (forall b t parent t', bb b t parent lvl = Some t' -> grows t t' (fb lvl b)) ->
  branches_under bb me lvl branches t = Some t' -> grows t t' (flat_map (fb lvl) branches).
Proof. intros Hbb. unfold branches_under. apply (ofold_grows (fun x => x) _ (fb lvl)). intros b ta tb. apply Hbb. Qed.

Lemma build_grows f :
  (forall s t parent prev lvl k t' me, build_step f s t parent prev lvl k = Some (t', me) -> grows t t' (fs lvl s)) /\
  (forall b t parent lvl t', build_branch f b t parent lvl = Some t' -> grows t t' (fb lvl b)) /\
  (forall a t parent prev lvl t' me, build_act f a t parent prev lvl = Some (t', me) -> grows t t' (fa lvl a)).
Proof.
  induction f as [|f (IHs & IHb & IHa)]; [repeat split; intros; discriminate|].
  split; [|split].
  - intros [id sif nxt ins outs setup branches acts catches tmos] t parent prev lvl k t' me H. cbn [build_step] in H.
    destruct (has_id t id) eqn:Eh; [discriminate|]. cbv zeta in H.
    apply with_me_some in H.
    apply (tmos_under_grows _ IHs) in H as (t3 & H & X4).
    apply (catches_under_grows _ IHs) in H as (t2 & H & X3).
    apply acts_under_grows in H as (t1 & H & X2); [|intros; eapply IHa; eauto].
    apply branches_under_grows in H; [|intros; eapply IHb; eauto].
    rewrite fs_eq. refine (grows_trans _ _ _ _ _ _ (grows_trans _ _ _ _ _ H (grows_trans _ _ _ _ _ X2 (grows_trans _ _ _ _ _ X3 X4)))).
    eapply grows_frame; [rewrite nkey_onext; apply nkey_link|]. now apply grows_new.
  - intros [id bif els needs steps] t parent lvl t' H. cbn [build_branch] in H.
    destruct (has_id t id) eqn:Eh; [discriminate|]. cbv zeta in H.
    apply (steps_under_grows _ IHs) in H. rewrite fb_eq. refine (grows_trans _ _ _ _ _ _ H).
    eapply grows_frame; [now apply nkey_tmod|]. now apply grows_new.
  - intros [id aif spec ins outs params setup catches tmos] t parent prev lvl t' me H. cbn [build_act] in H.
    destruct (has_id t id) eqn:Eh; [discriminate|]. cbv zeta in H.
    apply with_me_some in H.
    apply (tmos_under_grows _ IHs) in H as (t3 & H & X4).
    apply (catches_under_grows _ IHs) in H as (t2 & H & X3). inversion H; subst.
    rewrite fa_eq. refine (grows_trans _ _ _ _ _ _ (grows_trans _ _ _ _ _ X3 X4)).
    eapply grows_frame; [apply nkey_link|]. now apply grows_new.
Qed.
Theorem tree_grows f w t : build_tree f w = Some t ->
  map row t = g (w_id w) KWorkflow 0 :: flat_map (fs 1) (w_steps w) /\ ND t.
Proof.
  unfold build_tree. intros H. apply otbl_some in H as (a & H).
  apply (ofold_grows fst _ (fs 1)) in H; [|intros x [t1 p1] [t2 p2]; apply (proj1 (build_grows f))].
  destruct H as [E N]. split; [exact E|]. apply N. repeat constructor. intros [].
Qed.
End Rows.

Definition built_ids (w : workflow) : list nat := w_id w :: flat_map ids_step (w_steps w).
Lemma tree_ids_nd f w t : build_tree f w = Some t -> tids t = built_ids w /\ ND t.
Proof.
  apply (tree_grows (fun id _ _ => id) (fun _ => ids_step) (fun _ => ids_branch) (fun _ => ids_act) (fun _ => ids_catch) (fun _ => ids_tmo));
    reflexivity.
Qed.
Theorem tree_ids f w t : build_tree f w = Some t -> tids t = built_ids w.
Proof. intros H. apply (tree_ids_nd f w t H). Qed.
Theorem tree_nodup f w t : build_tree f w = Some t -> NoDup (built_ids w).
Proof. intros H. destruct (tree_ids_nd f w t H) as [<- N]. exact N. Qed.
Corollary duplicate_rejected f w : ~ NoDup (built_ids w) -> build_tree f w = None.
Proof. intros Hd. destruct (build_tree f w) eqn:E; auto. exfalso. apply Hd. eapply tree_nodup; eauto. Qed.

Lemma tree_nodupb_NoDup l : nodupb l = true -> NoDup l.
Proof. apply (nodupb_NoDup Nat.eqb Nat.eqb_eq). reflexivity. Qed.
Theorem model_nodup f on w t : build_model f on w = Some t -> t <> [] /\ build_tree f w = Some t /\ NoDup (on ++ built_ids w).
Proof.
  unfold build_model. destruct (existsb (Nat.eqb 0) on); [discriminate|].
  destruct (nodupb on) eqn:En; [|discriminate]. simpl.
  destruct (build_tree f w) as [t0|] eqn:Eb; [|discriminate].
  destruct (existsb (has_id t0) on) eqn:Eh; [discriminate|]. intros H; inversion H; subst.
  split; [|split; auto].
  - intros ->. apply tree_ids in Eb. discriminate.
  - pose proof (tree_nodup _ _ _ Eb) as Hn. rewrite <- (tree_ids _ _ _ Eb) in *.
    apply tree_nodupb_NoDup in En. revert En Eh. clear -Hn. induction on as [|x on IH]; simpl; intros En Eh; auto.
    apply orb_false_iff in Eh as [E1 E2]. inversion En; subst. constructor; [|auto].
    rewrite in_app_iff. intros [Hi | Hi]; [contradiction|]. apply has_id_In in E1. contradiction.
Qed.
Corollary model_duplicate_rejected f on w : ~ NoDup (on ++ built_ids w) -> build_model f on w = None.
Proof. intros Hd. destruct (build_model f on w) eqn:E; auto. exfalso. apply Hd. eapply model_nodup; eauto. Qed.
Lemma deploy_duplicates_rejected f on w ver text st :
  ~ NoDup (on ++ built_ids w) -> ddeploy st (dmodel_of f on w ver text) = (st, false).
Proof.
  intros H. apply ddeploy_rejected. cbn [dmodel_of d_valid].
  rewrite (model_duplicate_rejected f on w H). apply andb_false_r.
Qed.
