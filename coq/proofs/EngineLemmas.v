(* Component theorems about the engine model for C03, C04, C07, C08 and C16.  They hold for every engine state, reachable
   or not. *)
From Coq Require Import List ZArith Bool Lia.
Import ListNotations.
From Acts.Gen Require Import GenState.
From Acts.Model Require Import Engine.
From Acts.Proofs Require Import ListFacts Unfold EngineBasics.

(* C03: the process state mirrors terminal writes to the root task; a workflow / branch is not completed over an open child *)
Theorem root_terminal_mirrored site e s : 0 < length (tasks e) -> is_completed s = true -> pstate (set_state site e 0 s) = s.
Proof. intros H0 H. now rewrite pstate_ss, H. Qed.
Theorem other_writes_keep_pstate site e i s : i <> 0 -> pstate (set_state site e i s) = pstate e.
Proof.
  intros H. destruct (Nat.lt_ge_cases i (ntasks e)) as [Hi | Hi]; [|now rewrite set_state_oob].
  rewrite pstate_ss by exact Hi. destruct (Nat.eqb_spec i 0); [contradiction | now rewrite andb_false_r].
Qed.
Definition child_done e (j : nat) : bool := is_completed (st e j) || t_evproc (tk e j).
Theorem review_waits_for_children f cv from e i :
  t_evproc (tk e from) = false ->
  let e' := update_data e i (outputs e from) in
  (kind e' i = KWorkflow \/ kind e' i = KBranch) -> st e' i = SRunning ->
  forallb (child_done e') (children e' i) = false ->
  review (S f) cv from e i = e'.
Proof.
  intros Hev e' Hk Hs Hd. rewrite review_phases, Hev. fold e'. cbv zeta.
  destruct (review_head_container f cv e' i Hk Hs) as [site ->]. unfold child_done in Hd. rewrite Hd.
  unfold review_end. now rewrite Hs.
Qed.

(* C04: when a pending branch may start, and the state its initialisation leaves it in *)
Theorem needs_ready_iff e i : n_kind (tnode e i) = KBranch -> n_needs (tnode e i) <> [] ->
  fst (is_ready e i) = true <->
  exists j, In j (siblings e i) /\ is_completed (st e j) = true /\ In (n_id (tnode e j)) (n_needs (tnode e i)).
Proof.
  intros Hk Hn. unfold is_ready. rewrite Hk.
  destruct (n_needs (tnode e i)) as [|x l] eqn:E; [congruence|]. cbn [length Nat.eqb negb fst].
  rewrite existsb_exists. setoid_rewrite andb_true_iff. setoid_rewrite (existsb_eqb_In Nat.eqb Nat.eqb_eq). reflexivity.
Qed.
Theorem else_ready_iff e i : n_kind (tnode e i) = KBranch -> n_needs (tnode e i) = [] -> n_else (tnode e i) = true ->
  fst (is_ready e i) = true <-> forall j, In j (siblings e i) -> st e j = SSkipped.
Proof.
  intros Hk Hn He. unfold is_ready. rewrite Hk, Hn, He. cbn [length Nat.eqb negb].
  assert (F : forallb (fun j => is (st e j) SSkipped) (siblings e i) = true <-> forall j, In j (siblings e i) -> st e j = SSkipped).
  { rewrite forallb_forall. split; intros A j Hj; [apply is_eq, A, Hj | rewrite (A j Hj); reflexivity]. }
  rewrite <- F. destruct (forallb _ _); [reflexivity|]. destruct (existsb _ _); split; discriminate.
Qed.
Theorem other_ready e i : n_kind (tnode e i) <> KBranch -> is_ready e i = (true, e).
Proof. intros Hk. unfold is_ready. destruct (n_kind (tnode e i)); congruence. Qed.
Lemma st_set_silent e i b j : st (set_silent e i b) j = st e j.
Proof. now apply st_tmod. Qed.
Lemma tnode_set_silent e i b j : tnode (set_silent e i b) j = tnode e j.
Proof.
  unfold tnode, set_silent. now rewrite (tmod_keeps t_nid).
Qed.
Theorem branch_init_state e i : n_kind (tnode e i) = KBranch ->
  st (kind_init e i) i =
    (if negb (Nat.eqb (length (n_needs (tnode e i))) 0) then SPending
     else match n_if (tnode e i) with
          | Some b => match eval_cond (set_silent e i true) i b with Some false => SSkipped | _ => st e i end
          | None => if negb (n_else (tnode e i)) then SSkipped
                    else if Nat.ltb 1 (match parent (set_silent e i true) i with
                                       | Some p => length (normal_children (tnode (set_silent e i true) p)) | None => 1 end)
                         then SPending else st e i
          end) \/ length (tasks e) <= i.
Proof.
  intros Hk. destruct (Nat.lt_ge_cases i (length (tasks e))) as [Hi|Hi]; [left | right; exact Hi].
  assert (Hl : i < ntasks (set_silent e i true)) by (unfold set_silent; rewrite ntasks_tmod; exact Hi).
  unfold kind_init. rewrite Hk.
  destruct (negb (Nat.eqb (length (n_needs (tnode e i))) 0)); [now apply st_set_state_in|].
  destruct (n_if (tnode e i)) as [b|].
  - destruct (eval_cond (set_silent e i true) i b) as [[|]|].
    + apply st_set_silent.
    + now apply st_set_state_in.
    + unfold st, with_exn. cbn. apply st_set_silent.
  - destruct (negb (n_else (tnode e i))); [now apply st_set_state_in|].
    destruct (Nat.ltb 1 _); [now apply st_set_state_in | apply st_set_silent].
Qed.

(* C07: update_data writes to the writer and to its ancestry only *)
Lemma data_set_data_other e j v t : t <> j -> t_data (tk (set_data e j v) t) = t_data (tk e t).
Proof.
  intros H. unfold set_data. rewrite tk_tmod. destruct (Nat.eqb_spec t j); [contradiction|]. reflexivity.
Qed.
Lemma vget_vset v k x j : vget (vset v k x) j = if Nat.eqb j k then Some x else vget v j.
Proof. now apply (find_put Nat.eqb Nat.eqb_spec (fun j v => vget v j) vset). Qed.
Lemma vget_vset_other v k k' x : k <> k' -> vget (vset v k' x) k = vget v k.
Proof. intros H%Nat.eqb_neq. now rewrite vget_vset, H. Qed.
Lemma vget_set_data_key e j kv k t : k <> fst kv -> vget (t_data (tk (set_data e j [kv]) t)) k = vget (t_data (tk e t)) k.
Proof.
  intros H. unfold set_data. rewrite tk_tmod. destruct (Nat.eqb t j && Nat.ltb j (ntasks e)) eqn:E; [|reflexivity].
  apply andb_true_iff in E as [E _]. apply Nat.eqb_eq in E. subst. cbn. now apply vget_vset_other.
Qed.
Definition scope e i : list nat := ancestors (S (length (tasks e))) e (parent e i).
Lemma spread_scope e i v t : ~ In t (scope e i) -> t_data (tk (spread e i v) t) = t_data (tk e t).
Proof.
  intros Hn. apply (spread_inv (fun ee => t_data (tk ee t) = t_data (tk e t))); [|reflexivity].
  intros ee t0 kv Hin _ H. rewrite data_set_data_other; [exact H | intros ->; contradiction].
Qed.
Lemma spread_private e i v t k : pri_regex k = true -> vget (t_data (tk (spread e i v) t)) k = vget (t_data (tk e t)) k.
Proof.
  intros Hk. apply (spread_inv (fun ee => vget (t_data (tk ee t)) k = vget (t_data (tk e t)) k)); [|reflexivity].
  intros ee t0 kv _ Hp H. rewrite vget_set_data_key; [exact H | intros ->; congruence].
Qed.
Theorem update_data_scope e i v t : t <> i -> ~ In t (scope e i) -> t_data (tk (update_data e i v) t) = t_data (tk e t).
Proof. intros Hi Hs. rewrite update_data_spread, data_set_data_other by assumption. now apply spread_scope. Qed.
(* keys of the private class (data, dataset, and names starting with two underscores) never leave the writer *)
Theorem update_data_private e i v t k : t <> i -> pri_regex k = true ->
  vget (t_data (tk (update_data e i v) t)) k = vget (t_data (tk e t)) k.
Proof. intros Hi Hk. rewrite update_data_spread, data_set_data_other by assumption. now apply spread_private. Qed.
Lemma vget_vset_same v k x : vget (vset v k x) k = Some x.
Proof. now rewrite vget_vset, Nat.eqb_refl. Qed.
Lemma vget_vmerge_last a b k x : vget (vmerge a (b ++ [(k, x)])) k = Some x.
Proof. unfold vmerge. rewrite fold_left_app. cbn. apply vget_vset_same. Qed.
(* key 0 is `data` *)
Theorem outputs_keys e i :
  map fst (outputs e i) = map fst (vmerge (vmerge (n_outputs (tnode e i)) [(0, VNull)]) (map (fun k => (k, VNull)) (t_exposed (tk e i)))).
Proof. unfold outputs. rewrite map_map. apply map_ext. intros [k [| |]]; reflexivity. Qed.

(* C08: the message gate (runtime.rs on_task) *)
Theorem msg_gate e i : msg_allowed e i = true -> st e i <> SPending /\ st e i <> SRunning /\ t_silent (tk e i) = false.
Proof.
  unfold msg_allowed. intros H. apply andb_true_iff in H as [H H3]. apply andb_true_iff in H as [H1 H2].
  repeat split.
  - intros E. rewrite E in H1. discriminate.
  - intros E. rewrite E in H2. discriminate.
  - now destruct (t_silent (tk e i)).
Qed.

(* C16: generated acts *)
Lemma nodes_nmod e n f : length (nodes (nmod e n f)) = length (nodes e).
Proof. unfold nmod; cbn. apply upd_length. Qed.
Lemma nodes_app e x : length (nodes (with_nodes e (nodes e ++ [x]))) = S (length (nodes e)).
Proof. cbn [nodes with_nodes]. rewrite app_length. cbn [length]. lia. Qed.
Lemma nd_nmod e n f i : nd (nmod e n f) i = if Nat.eqb i n && Nat.ltb n (length (nodes e)) then f (nd e n) else nd e i.
Proof. unfold nd, nmod; cbn. apply upd_nth. Qed.
Lemma nd_app_old e x i : i < length (nodes e) -> nd (with_nodes e (nodes e ++ [x])) i = nd e i.
Proof. intros H. unfold nd; cbn [nodes with_nodes]. now rewrite app_nth1. Qed.
Lemma nd_app_new e x : nd (with_nodes e (nodes e ++ [x])) (length (nodes e)) = x.
Proof. unfold nd; cbn [nodes with_nodes]. rewrite app_nth2 by lia. now rewrite Nat.sub_diag. Qed.
Theorem build_acts_count e pn acts sq : length (nodes (build_acts e pn acts sq)) = length (nodes e) + length acts.
Proof.
  apply (build_acts_inv (fun n ee => length (nodes ee) = length (nodes e) + n)); [apply plus_n_O|].
  intros n ee x k f H. rewrite nodes_nmod, nodes_app, H. lia.
Qed.
Lemma children_add_child e pn c : pn < length (nodes e) ->
  normal_children (nd (add_child e pn c) pn) = normal_children (nd e pn) ++ [c].
Proof.
  intros H. unfold add_child. apply Nat.ltb_lt in H. rewrite nd_nmod, Nat.eqb_refl, H.
  unfold normal_children, children_in. cbn. now rewrite filter_app, map_app.
Qed.
(* a parallel generator (build_acts with sq = false) adds one child per act, in list order; `exec` schedules them together *)
Theorem parallel_children e pn acts : pn < length (nodes e) ->
  normal_children (nd (build_acts e pn acts false) pn) = normal_children (nd e pn) ++ seq (length (nodes e)) (length acts).
Proof.
  intros Hp. rewrite build_acts_eq.
  refine (proj2 (fold_left_count (fun n acc => length (nodes (fst acc)) = length (nodes e) + n /\
            normal_children (nd (fst acc) pn) = normal_children (nd e pn) ++ seq (length (nodes e)) n) _ acts _ (e, pn) _)).
  - intros n [ee prev] sp [Hl Hc]. cbn [build_step fst] in *.
    pose proof (nodes_app ee (mk_dyn (S (n_level (nd e pn))) sp)) as Hl1.
    split; [unfold add_child; rewrite nodes_nmod; lia|].
    rewrite children_add_child, nd_app_old by lia. now rewrite Hc, seq_S, app_assoc, Hl.
  - split; [apply plus_n_O | symmetry; apply app_nil_r].
Qed.

Lemma level_set_next e p c k : n_level (nd (set_next e p c) k) = n_level (nd e k).
Proof. unfold set_next. rewrite nd_nmod. destruct (Nat.eqb_spec k p) as [->|_]; [destruct (Nat.ltb _ _)|]; reflexivity. Qed.
Lemma next_set_next e p c : p < length (nodes e) -> n_next (nd (set_next e p c) p) = Some c.
Proof. intros H. apply Nat.ltb_lt in H. unfold set_next. rewrite nd_nmod, Nat.eqb_refl, H. reflexivity. Qed.
Lemma nd_set_next_other e p c k : k <> p -> nd (set_next e p c) k = nd e k.
Proof. intros H. unfold set_next. rewrite nd_nmod. now destruct (Nat.eqb_spec k p). Qed.

(* the fold after m acts.  Before the first, `prev` is the generating node pn, one level up, so the first act becomes its child; after
   it `prev` is the last node generated, of the generated level, so each further act is linked to the one before it *)
Definition chained e (pn m : nat) (acc : eng * nat) : Prop :=
  let '(ee, prev) := acc in
  let len := length (nodes e) in
  length (nodes ee) = len + m /\
  match m with
  | 0 => prev = pn /\ nd ee pn = nd e pn
  | S n => prev = len + n /\ n_level (nd ee prev) = S (n_level (nd e pn)) /\
           normal_children (nd ee pn) = normal_children (nd e pn) ++ [len] /\
           forall k, k < n -> n_next (nd ee (len + k)) = Some (len + S k)
  end.
Lemma build_step_chained e pn m acc sp : pn < length (nodes e) -> chained e pn m acc -> chained e pn (S m) (build_step (S (n_level (nd e pn))) pn true acc sp).
Proof.
  destruct acc as [ee prev]. intros Hpn [L H]. unfold build_step. cbv zeta.
  destruct m as [|n]; [destruct H as [-> E] | destruct H as (-> & V & C & N)]; rewrite nd_app_old by lia.
  - rewrite E. destruct (Nat.eqb_spec (n_level (nd e pn)) (S (n_level (nd e pn)))); [lia|]. rewrite Nat.add_0_r in L. unfold chained.
    split; [unfold add_child; rewrite nodes_nmod, nodes_app; lia | split; [lia|]]. split; [|split; [|intros k Hk; lia]].
    + unfold add_child. rewrite nd_nmod. destruct (Nat.eqb_spec (length (nodes ee)) pn); [lia|]. now rewrite nd_app_new.
    + rewrite children_add_child, nd_app_old, E, L by (rewrite ?nodes_app; lia). reflexivity.
  - rewrite V, Nat.eqb_refl. unfold chained.
    split; [unfold set_next; rewrite nodes_nmod, nodes_app; lia | split; [lia|]].
    split; [now rewrite level_set_next, nd_app_new | split; [rewrite nd_set_next_other, nd_app_old by lia; exact C|]].
    intros k Hk. destruct (Nat.eq_dec k n) as [-> | Hne]; [rewrite next_set_next, L by (rewrite nodes_app; lia); reflexivity|].
    rewrite nd_set_next_other, nd_app_old by lia. apply N. lia.
Qed.
(* a sequence generator (build_acts with sq = true) makes its first act a child of the generating node and chains the
   others by `next` links, in list order *)
Theorem sequence_links e pn sp rest : pn < length (nodes e) ->
  let e' := build_acts e pn (sp :: rest) true in
  let len := length (nodes e) in
  normal_children (nd e' pn) = normal_children (nd e pn) ++ [len] /\
  (forall k, k < length rest -> n_next (nd e' (len + k)) = Some (len + S k)) /\
  length (nodes e') = len + S (length rest).
Proof.
  intros Hpn e' len. unfold e'. rewrite build_acts_eq.
  pose proof (fold_left_count (chained e pn) _ (sp :: rest) (fun m acc sp' => build_step_chained e pn m acc sp' Hpn) (e, pn)) as H.
  destruct (fold_left _ _ _) as [ee prev]. destruct H as (L & _ & _ & C & N); [split; [apply plus_n_O | now split]|]. auto.
Qed.
