(* C01 and C03 on the class of model/Class.v, for every run: a workflow of steps in sequence whose acts are interactive (irq)
   or message acts -- no conditions, branches, catches, setup, hooks or function acts, timeout rules without steps -- driven
   by any schedule, by ticks and by accepted or rejected complete / submit / remove / skip / abort actions, is never stuck:
   whenever nothing is queued and the process has not ended, some act is waiting for a client.  No fuel hypothesis: in this
   class the review chain is at most act -> step -> workflow deep.
   The invariant is Good = SI /\ Prog.  Every state write in the class is one of two: an open state written to the task
   being executed (At, At_open), or a task closed (Closed, close_task), after which its successor is started or its
   parent reviewed (succ_good, handover_good). *)
From Coq Require Import List ZArith Bool Lia Permutation.
Import ListNotations.
From Acts.Gen Require Import GenState.
From Acts.Model Require Import Engine Class.
From Acts.Proofs Require Import ListFacts Unfold EngineBasics TimeoutInv C05Proofs Findings.


(* what the engine functions look at, apart from data, rows, trace and clock *)
Definition key (t : task) := (t_nid t, t_state t, t_prev t, t_evproc t, t_hooks t).
Definition PS (e : eng) : Prop := is_completed (st e 0) = true -> is_completed (pstate e) = true.
(* pstate is not compared: a step may write it (emit_tail does, when the root is closed) provided it keeps PS, so teq is not symmetric *)
Definition teq (e e' : eng) : Prop :=
  nodes e' = nodes e /\ queue e' = queue e /\ exn e' = exn e /\ oof e' = oof e /\ ntasks e' = ntasks e /\
  (forall t, key (tk e' t) = key (tk e t)) /\ (PS e -> PS e').
Lemma teq_refl e : teq e e. Proof. repeat split; auto. Qed.
Lemma teq_trans a b c : teq a b -> teq b c -> teq a c.
Proof. intros (A1 & A2 & A3 & A4 & A5 & A6 & A7) (B1 & B2 & B3 & B4 & B5 & B6 & B7). repeat split; try congruence; auto. Qed.
Lemma teq_len e e' : teq e e' -> ntasks e' = ntasks e. Proof. intros H. apply H. Qed.
Lemma teq_key e e' t : teq e e' -> key (tk e' t) = key (tk e t). Proof. intros H. apply H. Qed.
Lemma teq_st e e' t : teq e e' -> st e' t = st e t.
Proof. intros H. apply (teq_key _ _ t) in H. unfold key in H. unfold st. congruence. Qed.

Definition nohooks (e : eng) : Prop := forall t, t_hooks (tk e t) = [] /\ t_evproc (tk e t) = false.
Lemma nohooks_teq e e' : teq e e' -> nohooks e -> nohooks e'.
Proof. intros H N t. pose proof (teq_key _ _ t H) as K. injection K as _ _ _ -> ->. apply N. Qed.
Lemma teq_add_ev e x : teq e (add_ev e x). Proof. repeat split; auto. Qed.
Lemma teq_upsert e i : teq e (upsert e i). Proof. repeat split; auto. Qed.
Lemma teq_persist e : teq e (persist e). Proof. repeat split; auto. Qed.
Lemma teq_tmod e i f : (forall x, key (f x) = key x) -> teq e (tmod e i f).
Proof.
  intros K. assert (M : forall t, key (tk (tmod e i f) t) = key (tk e t)).
  { intros t. rewrite tk_tmod. destruct (Nat.eqb_spec t i) as [->|]; [|reflexivity]. destruct (Nat.ltb _ _); [apply K | reflexivity]. }
  repeat split; auto; [apply ntasks_tmod|]. unfold PS, st. specialize (M 0). unfold key in M. change (pstate (tmod e i f)) with (pstate e). intros P H0. apply P. congruence.
Qed.
Lemma teq_set_data e i v : teq e (set_data e i v). Proof. apply teq_tmod. reflexivity. Qed.
Lemma teq_set_catches e i v : teq e (set_catches e i v). Proof. apply teq_tmod. reflexivity. Qed.
Lemma teq_set_timeouts e i v : teq e (set_timeouts e i v). Proof. apply teq_tmod. reflexivity. Qed.
Lemma teq_set_silent e i v : teq e (set_silent e i v). Proof. apply teq_tmod. reflexivity. Qed.
Lemma teq_fold {B} e0 (g : eng -> B -> eng) l : (forall e b, In b l -> teq e0 e -> teq e0 (g e b)) ->
  forall e, teq e0 e -> teq e0 (fold_left g l e).
Proof. apply (fold_left_inv_in (teq e0)). Qed.
Lemma teq_update_data e i v : teq e (update_data e i v).
Proof. apply (update_data_inv (teq e)); [intros ee t w H; exact (teq_trans _ _ _ H (teq_set_data ee t w)) | apply teq_refl]. Qed.
Lemma run_stmt_hooks_none e t ev i : t_hooks (tk e t) = [] -> run_stmt_hooks e t ev i = e.
Proof. intros H. unfold run_stmt_hooks. now rewrite H. Qed.

Lemma hooks_none k e i : nohooks e -> created_hooks k e i = e /\ completed_hooks k e i = e.
Proof.
  intros N. assert (Hh : forall x ev, run_stmt_hooks e x ev i = e) by (intros; apply run_stmt_hooks_none, N).
  unfold created_hooks, completed_hooks, act_hooks. cbv zeta. rewrite !Hh.
  split; destruct (nkind_beq k KAct); try destruct (climb_step e i); try destruct (nkind_beq k KStep); rewrite ?Hh; reflexivity.
Qed.
(* the last premise: emitting a closed workflow task writes its state to pstate (emit_tail), and PS ties pstate to task 0 *)
Lemma teq_emit f e i : nohooks e -> st e i <> SError -> (kind e i = KWorkflow -> i = 0) -> teq e (emit (S f) e i).
Proof.
  intros N He Hroot. rewrite emit_S.
  assert (T1 : teq e (emit_head e i)).
  { unfold emit_head. eapply teq_trans; [|apply teq_upsert]. destruct (kind e i); try apply teq_refl. destruct (is_created _); [apply teq_add_ev | apply teq_refl]. }
  assert (E2 : emit_mid f (kind e i) (emit_head e i) i = emit_head e i).
  { pose proof (nohooks_teq _ _ T1 N) as N1. unfold emit_mid. rewrite (proj2 (N1 i)), (proj1 (hooks_none _ _ i N1)), (proj2 (hooks_none _ _ i N1)).
    assert (E : is (st (emit_head e i) i) SError = false) by (rewrite (teq_st _ _ i T1); destruct (st e i); simpl; congruence).
    rewrite E. destruct (is_created _); [reflexivity|]. destruct (_ && _); reflexivity. }
  rewrite E2.
  assert (T3 : teq e (emit_msg (emit_head e i) i)) by (unfold emit_msg; destruct (msg_allowed _ _); [eapply teq_trans; [exact T1 | apply teq_add_ev] | exact T1]).
  revert T3. generalize (emit_msg (emit_head e i) i). intros e3 T3. unfold emit_tail.
  destruct (kind e i) eqn:Ek; try exact T3.
  destruct (is_completed (st e3 i)) eqn:Ec; [|exact T3].
  eapply teq_trans; [exact T3|]. eapply teq_trans; [|apply teq_add_ev].
  specialize (Hroot eq_refl). subst i.
  repeat split; auto. intros _ _. cbn [pstate with_pstate]. exact Ec.
Qed.

(* same structure: the nodes, and of every task its node and prev -- what tnode, kind, parent and children read; set_state keeps it *)
Definition sameS (e e' : eng) : Prop :=
  nodes e' = nodes e /\ ntasks e' = ntasks e /\ forall t, t_nid (tk e' t) = t_nid (tk e t) /\ t_prev (tk e' t) = t_prev (tk e t).
Lemma sameS_teq e e' : teq e e' -> sameS e e'.
Proof. intros H. split; [apply H|]. split; [now apply teq_len|]. intros t. pose proof (teq_key _ _ t H) as K. injection K as -> _ -> _ _. auto. Qed.
Lemma sameS_set_state site e i s : sameS e (set_state site e i s).
Proof.
  split; [|split].
  - unfold set_state. destruct (negb _); [reflexivity|]. destruct (_ && _); reflexivity.
  - apply ntasks_set_state.
  - intros t. split; now apply set_state_keeps.
Qed.
Lemma sameS_tnode e e' t : sameS e e' -> tnode e' t = tnode e t.
Proof. intros (Hn & _ & H). unfold tnode, nd. destruct (H t) as [-> _]. now rewrite Hn. Qed.
Lemma sameS_kind e e' t : sameS e e' -> kind e' t = kind e t.
Proof. intros H. unfold kind. now rewrite (sameS_tnode _ _ t H). Qed.
Lemma sameS_parent_from e e' lvl : sameS e e' -> forall f p, parent_from f e' lvl p = parent_from f e lvl p.
Proof.
  intros H. induction f as [|f IH]; intros p; [reflexivity|]. cbn [parent_from]. destruct p as [q|]; [|reflexivity].
  rewrite (sameS_tnode _ _ q H), IH. destruct H as (_ & _ & H). destruct (H q) as [_ ->]. reflexivity.
Qed.
Lemma sameS_parent e e' t : sameS e e' -> parent e' t = parent e t.
Proof.
  intros H. unfold parent. rewrite (sameS_tnode _ _ t H), (sameS_parent_from _ _ _ H).
  destruct H as (_ & L & H). destruct (H t) as [_ ->]. unfold ntasks in L. now rewrite L.
Qed.
Lemma sameS_children e e' t : sameS e e' -> children e' t = children e t.
Proof.
  intros (_ & L & H). unfold children. unfold ntasks in L. rewrite L.
  apply filter_ext. intros j. destruct (H j) as [_ ->]. reflexivity.
Qed.

Lemma tnode_ss site e i s t : tnode (set_state site e i s) t = tnode e t. Proof. apply sameS_tnode, sameS_set_state. Qed.
Lemma kind_ss site e i s t : kind (set_state site e i s) t = kind e t. Proof. apply sameS_kind, sameS_set_state. Qed.
Lemma parent_ss site e i s t : parent (set_state site e i s) t = parent e t. Proof. apply sameS_parent, sameS_set_state. Qed.
Lemma children_ss site e i s t : children (set_state site e i s) t = children e t. Proof. apply sameS_children, sameS_set_state. Qed.
Lemma teq_tnode e e' t : teq e e' -> tnode e' t = tnode e t. Proof. intros H. now apply sameS_tnode, sameS_teq. Qed.
Lemma teq_kind e e' t : teq e e' -> kind e' t = kind e t. Proof. intros H. now apply sameS_kind, sameS_teq. Qed.
Lemma teq_parent e e' t : teq e e' -> parent e' t = parent e t. Proof. intros H. now apply sameS_parent, sameS_teq. Qed.
Lemma teq_children e e' t : teq e e' -> children e' t = children e t. Proof. intros H. now apply sameS_children, sameS_teq. Qed.
(* the parent is found on the prev chain, which goes down: the fuel and later tasks do not matter *)
Lemma pf_agree e e' lvl n : nodes e' = nodes e -> (forall q, q < n -> tk e' q = tk e q) ->
  (forall q, q < n -> match t_prev (tk e q) with Some p => p < q | None => True end) ->
  forall q, q < n -> forall f f', q < f -> q < f' -> parent_from f e' lvl (Some q) = parent_from f' e lvl (Some q).
Proof.
  intros Hn Hk HW. induction q as [q IH] using lt_wf_ind. intros Hq f f' Hf Hf'.
  destruct f as [|f]; [lia|]. destruct f' as [|f']; [lia|]. cbn [parent_from].
  unfold tnode, nd. rewrite (Hk q Hq), Hn. destruct (Nat.ltb _ _); [reflexivity|].
  specialize (HW q Hq). destruct (t_prev (tk e q)) as [p|].
  - apply IH; lia.
  - destruct f, f'; reflexivity.
Qed.

Definition okst (s : TaskState) : bool :=
  match s with SNone | SReady | SRunning | SInterrupt | SCompleted | SSubmitted | SRemoved | SSkipped | SAborted => true | _ => false end.
Definition opn (e : eng) (t : nat) : Prop := is_completed (st e t) = false.
(* why an open task is not forgotten: it is queued, or it waits for a client, or it runs over an open task of its own *)
Definition clause (e : eng) (t : nat) : Prop :=
  In t (queue e) \/ st e t = SInterrupt \/ (st e t = SRunning /\ exists j, j < ntasks e /\ parent e j = Some t /\ opn e j).
(* X is the set of tasks excused from having a clause while an operation is under way (the task being executed, the parent
   of a task just closed); between operations nobody is excused: Prog *)
Definition PX (X : nat -> Prop) (e : eng) : Prop := forall t, t < ntasks e -> opn e t -> X t \/ clause e t.
Definition none (_ : nat) : Prop := False.
Definition Prog (e : eng) : Prop := PX none e.

Record SIa (e : eng) : Prop := {
  sia_nodes : frag_nodes (nodes e) = true;
  sia_exn : exn e = false;
  sia_oof : oof e = false;
  sia_nh : nohooks e;
  sia_task : forall t, t < ntasks e -> okst (st e t) = true /\ t_nid (tk e t) < length (nodes e) /\
                                     (kind e t <> KAct -> st e t <> SSkipped) /\ (0 < t -> kind e t <> KWorkflow);
  sia_root : 0 < ntasks e /\ t_prev (tk e 0) = None /\ t_nid (tk e 0) = 0;
  sia_prev : forall t, 0 < t -> t < ntasks e -> exists q, t_prev (tk e t) = Some q /\ q < t /\ st e q <> SNone /\
               ((kind e q <> KAct /\ kind e t = child_kind (kind e q)) \/ (kind e t = kind e q /\ is_completed (st e q) = true));
  sia_queue : (forall t, In t (queue e) -> t < ntasks e /\ (st e t = SNone \/ is_completed (st e t) = true)) /\ NoDup (queue e);
  sia_ps : PS e }.

Lemma SIa_W e : SIa e -> W e.
Proof.
  intros H t Ht. destruct t as [|t].
  - destruct (sia_root e H) as (_ & -> & _). exact I.
  - destruct (sia_prev e H (S t) ltac:(lia) Ht) as (q & -> & Hq & _). exact Hq.
Qed.
Lemma frag_nth ns nid : frag_nodes ns = true -> nid < length ns -> frag_node ns (nth nid ns dnode) = true.
Proof.
  intros H Hn. unfold frag_nodes in H. apply andb_true_iff in H as [H _]. rewrite forallb_forall in H. apply H. now apply nth_In.
Qed.
Lemma SIa_fnode e t : SIa e -> t < ntasks e -> frag_node (nodes e) (tnode e t) = true.
Proof. intros H Ht. unfold tnode, nd. apply frag_nth; [apply H | apply (sia_task e H t Ht)]. Qed.
Lemma nkb_refl a : nkind_beq a a = true. Proof. destruct a; reflexivity. Qed.
Record frag_ok (ns : list node) (n : node) : Prop := {
  fk_if : n_if n = None;
  fk_setup : n_setup n = [];
  fk_kind : n_kind n <> KBranch;
  fk_level : n_level n = lvl_of (n_kind n);
  fk_act : n_kind n = KAct -> (sp_u (n_spec n) = UIrq \/ sp_u (n_spec n) = UMsg) /\ n_children n = [] /\ n_isset n = false;
  fk_children : n_children n = [] \/
                exists c, n_children n = [(ONormal, c)] /\ c < length ns /\ n_kind (nth c ns dnode) = child_kind (n_kind n);
  fk_next : forall nx, n_next n = Some nx -> nx < length ns /\ n_kind (nth nx ns dnode) = n_kind n /\ n_kind n <> KWorkflow }.
Lemma frag_node_ok ns n : frag_node ns n = true -> frag_ok ns n.
Proof.
  unfold frag_node. rewrite !andb_true_iff. intros ((((((((Fif & _) & Fsetup) & Fkind) & Flevel) & Flen) & Fact) & Fch) & Fnext).
  constructor.
  - now destruct (n_if n).
  - now destruct (n_setup n).
  - intros E. now rewrite E in Fkind.
  - now apply Nat.eqb_eq.
  - intros E. rewrite E in Fact. cbn [nkind_beq] in Fact. apply andb_true_iff in Fact as [Fact Fis]. apply andb_true_iff in Fact as [Fu Fc].
    split; [destruct (sp_u (n_spec n)); auto; discriminate|]. split; [now destruct (n_children n) | now apply negb_true_iff].
  - destruct (n_children n) as [|[k c] [|]]; [now left | right | discriminate]. exists c. cbn [forallb fst snd] in Fch.
    rewrite andb_true_r in Fch. apply andb_true_iff in Fch as [Fch Fk]. apply andb_true_iff in Fch as [Fo Fl].
    split; [destruct k as [|[?|]|?]; (reflexivity || discriminate)|]. split; [now apply Nat.ltb_lt | now apply internal_nkind_dec_bl].
  - intros nx E. rewrite E in Fnext. apply andb_true_iff in Fnext as [Fnext Fw]. apply andb_true_iff in Fnext as [Fl Fk].
    split; [now apply Nat.ltb_lt|]. split; [now apply internal_nkind_dec_bl|]. intros Ew. now rewrite Ew in Fw.
Qed.
Lemma task_ok e t : SIa e -> t < ntasks e -> frag_ok (nodes e) (tnode e t).
Proof. intros H Ht. apply frag_node_ok, SIa_fnode; assumption. Qed.
Lemma SIa_level e t : SIa e -> t < ntasks e -> n_level (tnode e t) = lvl_of (kind e t).
Proof. intros H Ht. apply (fk_level _ _ (task_ok e t H Ht)). Qed.
Lemma SIa_root_kind e : SIa e -> kind e 0 = KWorkflow.
Proof.
  intros H. destruct (sia_root e H) as (_ & _ & Hn). unfold kind, tnode, nd. rewrite Hn.
  pose proof (sia_nodes e H) as F. unfold frag_nodes in F. apply andb_true_iff in F as [_ F].
  destruct (nodes e) as [|r l]; [discriminate|]. now apply internal_nkind_dec_bl.
Qed.

(* the parent of a task started as a child is its prev; of a task started through a next link, the parent of its prev *)
Lemma parent_child e t q : SIa e -> t < ntasks e -> t_prev (tk e t) = Some q -> q < t ->
  kind e q <> KAct -> kind e t = child_kind (kind e q) -> parent e t = Some q.
Proof.
  intros H Ht Hp Hq Hk Hc. unfold parent. rewrite Hp. cbn [parent_from].
  rewrite (SIa_level e t H Ht), (SIa_level e q H ltac:(lia)), Hc.
  destruct (kind e q); try contradiction; reflexivity.
Qed.
Lemma parent_nextlink e t q : SIa e -> t < ntasks e -> t_prev (tk e t) = Some q -> q < t ->
  kind e t = kind e q -> parent e t = parent e q.
Proof.
  intros H Ht Hp Hq Hk. unfold parent. rewrite Hp. cbn [parent_from].
  rewrite (SIa_level e t H Ht), (SIa_level e q H ltac:(lia)), Hk, Nat.ltb_irrefl.
  pose proof (SIa_W e H) as HW. pose proof (HW q ltac:(lia)) as Hpq.
  destruct (t_prev (tk e q)) as [r|].
  - unfold ntasks in *.
    exact (pf_agree e e (lvl_of (kind e q)) (length (tasks e)) eq_refl (fun _ _ => eq_refl) (fun x Hx => HW x Hx) r ltac:(lia)
             (length (tasks e)) (S (length (tasks e))) ltac:(lia) ltac:(lia)).
  - unfold ntasks in Ht. destruct (length (tasks e)); reflexivity.
Qed.
Lemma wf_root e t : SIa e -> t < ntasks e -> kind e t = KWorkflow -> t = 0.
Proof. intros H Ht Hk. destruct t; [reflexivity | exfalso]. destruct (sia_task e H _ Ht) as (_ & _ & _ & Hwf). apply Hwf; [lia | exact Hk]. Qed.
Lemma no_branch e t : SIa e -> t < ntasks e -> kind e t <> KBranch.
Proof. intros H Ht. apply (fk_kind _ _ (task_ok e t H Ht)). Qed.
Lemma parent_root e : SIa e -> parent e 0 = None.
Proof. intros H. unfold parent. destruct (sia_root e H) as (_ & -> & _). reflexivity. Qed.
Lemma parent_spec e : SIa e -> forall t, t < ntasks e ->
  match parent e t with
  | Some p => kind e p <> KAct /\ kind e t = child_kind (kind e p) /\ children e p <> []
  | None => t = 0
  end.
Proof.
  intros H. induction t as [t IH] using lt_wf_ind. intros Ht. destruct t as [|t']; [now rewrite (parent_root e H)|].
  destruct (sia_prev e H (S t') ltac:(lia) Ht) as (q & A & B & _ & [[D1 D2] | [D1 _]]).
  - rewrite (parent_child e _ q H); auto. split; [exact D1|]. split; [exact D2|]. intros Hnil.
    assert (Hin : In (S t') (children e q)) by (apply filter_In; split; [apply in_seq; unfold ntasks in Ht; lia | rewrite A; apply Nat.eqb_refl]).
    now rewrite Hnil in Hin.
  - rewrite (parent_nextlink e _ q H), D1; auto. specialize (IH q B ltac:(lia)). destruct (parent e q); [exact IH|]. subst q. exfalso.
    destruct (sia_task e H _ Ht) as (_ & _ & _ & Hwf). apply Hwf; [lia|]. rewrite D1. now apply SIa_root_kind.
Qed.
Lemma has_parent e : SIa e -> forall j, 0 < j -> j < ntasks e -> exists p, parent e j = Some p.
Proof. intros H j Hj0 Hj. pose proof (parent_spec e H j Hj) as P. destruct (parent e j) as [p|]; [now exists p | lia]. Qed.
Lemma parent_kind e : SIa e -> forall t p, t < ntasks e -> parent e t = Some p ->
  kind e p <> KAct /\ kind e t = child_kind (kind e p) /\ children e p <> [].
Proof. intros H t p Ht Hp. pose proof (parent_spec e H t Ht) as P. now rewrite Hp in P. Qed.
Lemma parent_level e t p : SIa e -> t < ntasks e -> parent e t = Some p -> p < t /\ lvl_of (kind e p) < lvl_of (kind e t).
Proof.
  intros H Ht Hp. split; [apply (parent_lt e t p (SIa_W e H) Ht Hp)|]. destruct (parent_kind e H t p Ht Hp) as (A & -> & _).
  destruct (kind e p); cbn [lvl_of child_kind]; try lia. now elim A.
Qed.

(* Y is the way out when t leaves the queue or loses the open task beneath it; the PX_ lemmas put there the excuse of t in
   the state after, `X' t` *)
Lemma clause_mono (Y : Prop) e e' t : clause e t -> st e' t = st e t ->
  (In t (queue e) -> Y \/ In t (queue e')) ->
  (forall j, j < ntasks e -> parent e j = Some t -> opn e j -> Y \/ (j < ntasks e' /\ parent e' j = Some t /\ opn e' j)) ->
  Y \/ clause e' t.
Proof.
  intros [H | [H | (H & j & Hj & Hp & Ho)]] Hst HQ HC.
  - destruct (HQ H) as [Hy | Hq]; [now left | right; now left].
  - right; right; left. now rewrite Hst.
  - destruct (HC j Hj Hp Ho) as [Hy | Hk]; [now left|]. right; right; right. split; [now rewrite Hst|]. now exists j.
Qed.
Lemma SIa_teq e e' : teq e e' -> SIa e -> SIa e'.
Proof.
  intros T H. pose proof (teq_len _ _ T) as L. pose proof T as (Tn & Tq & Tx & To & _ & _ & Tp).
  assert (K : forall t, t_nid (tk e' t) = t_nid (tk e t) /\ t_prev (tk e' t) = t_prev (tk e t)) by apply (sameS_teq _ _ T).
  constructor.
  - rewrite Tn. apply H.
  - rewrite Tx. apply H.
  - rewrite To. apply H.
  - eapply nohooks_teq; eauto. apply H.
  - intros t Ht. rewrite L in Ht. destruct (K t) as [-> _]. rewrite (teq_st _ _ t T), (teq_kind _ _ t T), Tn. apply (sia_task e H t Ht).
  - rewrite L. destruct (K 0) as [-> ->]. apply H.
  - intros t Ht0 Ht. rewrite L in Ht. destruct (sia_prev e H t Ht0 Ht) as (q & A & B & C & D). exists q.
    destruct (K t) as [_ ->]. rewrite (teq_st _ _ q T), !(teq_kind _ _ _ T). auto.
  - rewrite Tq. split; [|apply H]. intros t Ht. rewrite L, (teq_st _ _ t T). apply H, Ht.
  - apply Tp, H.
Qed.
Lemma PX_teq X e e' : teq e e' -> PX X e -> PX X e'.
Proof.
  intros T H t Ht Ho. rewrite (teq_len _ _ T) in Ht. unfold opn in Ho. rewrite (teq_st _ _ t T) in Ho.
  destruct (H t Ht Ho) as [Hx | Hc]; [now left|].
  apply (clause_mono _ e _ t Hc); [now apply teq_st | destruct T as (_ & -> & _); now right|].
  intros j Hj Hp Hjo. right. unfold opn. now rewrite (teq_len _ _ T), (teq_parent _ _ j T), (teq_st _ _ j T).
Qed.
Lemma PX_weaken (X X' : nat -> Prop) e : PX X e -> (forall t, X t -> t < ntasks e -> opn e t -> X' t \/ clause e t) -> PX X' e.
Proof. intros H HX t Ht Ho. destruct (H t Ht Ho) as [Hx | Hc]; [now apply HX | now right]. Qed.

Lemma key_ss site e i s t : key (tk (set_state site e i s) t) =
  if Nat.eqb t i && Nat.ltb i (length (tasks e)) then (t_nid (tk e i), s, t_prev (tk e i), t_evproc (tk e i), t_hooks (tk e i)) else key (tk e t).
Proof. rewrite tk_set_state. unfold ntasks. destruct (_ && _); reflexivity. Qed.

Lemma SIa_ss site e i s : SIa e -> i < ntasks e -> okst s = true -> s <> SNone ->
  (kind e i <> KAct -> s <> SSkipped) ->
  (is_completed s = false -> is_completed (st e i) = false /\ ~ In i (queue e)) ->
  SIa (set_state site e i s).
Proof.
  intros H Hi Hok Hnn Hsk Hopen. pose proof (sameS_set_state site e i s) as HS.
  pose proof (nodes_set_state site e i s) as Mn. pose proof (exn_set_state site e i s) as Mx. pose proof (oof_set_state site e i s) as Mo.
  constructor.
  - rewrite Mn. apply H.
  - rewrite Mx. apply H.
  - rewrite Mo. apply H.
  - intros t. rewrite (set_state_keeps t_hooks), (set_state_keeps t_evproc) by reflexivity. apply (sia_nh e H t).
  - intros t Ht. rewrite ntasks_set_state in Ht. rewrite (sameS_kind _ _ t HS), Mn. destruct HS as (_ & _ & HS). destruct (HS t) as [-> _].
    rewrite (st_ss site e i s t Hi). destruct (sia_task e H t Ht) as (A & B & C & D).
    destruct (Nat.eqb_spec t i) as [->|]; auto.
  - rewrite ntasks_set_state. destruct HS as (_ & _ & HS). destruct (HS 0) as [-> ->]. apply H.
  - intros t Ht0 Ht. rewrite ntasks_set_state in Ht. destruct (sia_prev e H t Ht0 Ht) as (q & A & B & C & D). exists q.
    rewrite !(sameS_kind _ _ _ HS). destruct HS as (_ & _ & HS). destruct (HS t) as [_ ->].
    rewrite (st_ss site e i s q Hi). split; [exact A|]. split; [exact B|].
    destruct (Nat.eqb_spec q i) as [->|]; [|auto]. split; [exact Hnn|].
    destruct D as [D | [D1 D2]]; [left; exact D|]. right. split; [exact D1|].
    destruct (is_completed s) eqn:Es; [reflexivity|]. destruct (Hopen eq_refl) as [Ho _]. congruence.
  - rewrite queue_set_state. split; [|apply H]. intros t Ht. rewrite ntasks_set_state, (st_ss site e i s t Hi).
    destruct (proj1 (sia_queue e H) t Ht) as [A B]. split; [exact A|].
    destruct (Nat.eqb_spec t i) as [->|]; [|exact B].
    destruct (is_completed s) eqn:Es; [now right|]. destruct (Hopen eq_refl) as [_ Hq]. contradiction.
  - unfold PS. rewrite (st_ss site e i s 0 Hi), (pstate_ss site e i s Hi). pose proof (sia_ps e H) as P. unfold PS in P.
    destruct (Nat.eqb_spec 0 i) as [<-|Hne].
    + intros Hc. rewrite Hc. cbn. exact Hc.
    + intros Hc. replace (Nat.eqb i 0) with false by (symmetry; apply Nat.eqb_neq; lia). rewrite andb_false_r. now apply P.
Qed.

(* i has to be excused if it is left open; if it is closed, its parent, whose open task it may have been *)
Lemma PX_ss site (X X' : nat -> Prop) e i s : PX X e -> i < ntasks e -> (forall t, t <> i -> X t -> X' t) ->
  (is_completed s = false -> X' i) -> (is_completed s = true -> forall t, parent e i = Some t -> X' t) ->
  PX X' (set_state site e i s).
Proof.
  intros H Hi HX Hopen Hclosed t Ht Ho. rewrite ntasks_set_state in Ht. unfold opn in Ho.
  destruct (Nat.eq_dec t i) as [->|Hne]; [rewrite (st_set_state_in site e i s Hi) in Ho; left; now apply Hopen|].
  rewrite (st_set_state_other site e i s t Hne) in Ho.
  destruct (H t Ht Ho) as [Hx | Hc]; [left; now apply HX|].
  apply (clause_mono _ e _ t Hc); [now apply st_set_state_other | rewrite queue_set_state; now right|].
  intros j Hj Hp Hjo. rewrite ntasks_set_state, parent_ss. unfold opn.
  destruct (Nat.eq_dec j i) as [->|Hji]; [|right; now rewrite (st_set_state_other site e i s j Hji)].
  rewrite (st_set_state_in site e i s Hi). destruct (is_completed s) eqn:Es; [left; now apply Hclosed | now right].
Qed.

(* "spawn" is Engine.sched_v (sched, sched_next); tk_spawn_old / _new are EngineBasics.tk_sched_v read at an old task / at the new one *)
Lemma tk_spawn_old v e nid p t : t < ntasks e -> tk (sched_v v e nid p) t = tk e t.
Proof. intros Ht. rewrite tk_sched_v. destruct (Nat.eqb_spec t (ntasks e)); [lia | reflexivity]. Qed.
Lemma tk_spawn_new v e nid p : tk (sched_v v e nid p) (ntasks e) = new_task nid (Some p).
Proof. now rewrite tk_sched_v, Nat.eqb_refl. Qed.
Lemma st_spawn_old v e nid p t : t < ntasks e -> st (sched_v v e nid p) t = st e t.
Proof. intros Ht. unfold st. now rewrite tk_spawn_old. Qed.
Lemma st_spawn_new v e nid p : st (sched_v v e nid p) (ntasks e) = SNone.
Proof. unfold st. now rewrite tk_spawn_new. Qed.
Lemma tnode_spawn_old v e nid p t : t < ntasks e -> tnode (sched_v v e nid p) t = tnode e t.
Proof. intros Ht. unfold tnode. now rewrite tk_spawn_old. Qed.
Lemma kind_spawn_old v e nid p t : t < ntasks e -> kind (sched_v v e nid p) t = kind e t.
Proof. intros Ht. unfold kind. now rewrite tnode_spawn_old. Qed.
Lemma kind_spawn_new v e nid p : kind (sched_v v e nid p) (ntasks e) = n_kind (nd e nid).
Proof. unfold kind, tnode. now rewrite tk_spawn_new. Qed.
Lemma queue_spawn v e nid p : queue (sched_v v e nid p) = queue e ++ [ntasks e]. Proof. reflexivity. Qed.
Lemma spawn_old_or_new v e nid p t : t < ntasks (sched_v v e nid p) -> t < ntasks e \/ t = ntasks e.
Proof. rewrite ntasks_sched_v. lia. Qed.
Lemma parent_spawn_old v e nid p t : W e -> t < ntasks e -> parent (sched_v v e nid p) t = parent e t.
Proof.
  intros HW Ht. unfold parent. rewrite (tnode_spawn_old v e nid p t Ht), (tk_spawn_old v e nid p t Ht).
  pose proof (HW t Ht) as Hp. destruct (t_prev (tk e t)) as [q|]; [|reflexivity].
  pose proof (ntasks_sched_v v e nid p) as L. unfold ntasks in *.
  exact (pf_agree e (sched_v v e nid p) _ (length (tasks e)) eq_refl (tk_spawn_old v e nid p) (fun x Hx => HW x Hx) q ltac:(lia)
           (S (length (tasks (sched_v v e nid p)))) (S (length (tasks e))) ltac:(lia) ltac:(lia)).
Qed.
Lemma SIa_spawn v e nid p : SIa e -> p < ntasks e -> nid < length (nodes e) -> st e p <> SNone ->
  ((kind e p <> KAct /\ n_kind (nd e nid) = child_kind (kind e p)) \/
   (n_kind (nd e nid) = kind e p /\ is_completed (st e p) = true /\ kind e p <> KWorkflow)) ->
  SIa (sched_v v e nid p).
Proof.
  intros H Hp Hnid Hst Halt. constructor.
  - apply H.
  - apply H.
  - apply H.
  - intros t. rewrite tk_sched_v. destruct (Nat.eqb _ _); [split; reflexivity | apply (sia_nh e H t)].
  - intros t Ht. destruct (spawn_old_or_new _ _ _ _ _ Ht) as [Ht' | ->].
    + rewrite (kind_spawn_old v e nid p t Ht'), (st_spawn_old v e nid p t Ht'), (tk_spawn_old v e nid p t Ht'). apply (sia_task e H t Ht').
    + rewrite kind_spawn_new, st_spawn_new, tk_spawn_new. split; [reflexivity|]. split; [exact Hnid|]. split; [discriminate|]. intros _.
      destruct Halt as [[A B] | (B & _ & C)]; rewrite B; [destruct (kind e p); discriminate | exact C].
  - rewrite ntasks_sched_v. destruct (sia_root e H) as (A & B & C). rewrite (tk_spawn_old v e nid p 0 A). split; [lia | auto].
  - intros t Ht0 Ht. destruct (spawn_old_or_new _ _ _ _ _ Ht) as [Ht' | ->].
    + destruct (sia_prev e H t Ht0 Ht') as (q & A & B & C & D). exists q.
      rewrite (tk_spawn_old v e nid p t Ht'), (st_spawn_old v e nid p q), !kind_spawn_old by lia. auto.
    + exists p. rewrite tk_spawn_new, (st_spawn_old v e nid p p Hp), (kind_spawn_old v e nid p p Hp), kind_spawn_new.
      split; [reflexivity|]. split; [exact Hp|]. split; [exact Hst|]. destruct Halt as [[A B] | (B & C & _)]; auto.
  - rewrite queue_spawn. destruct (sia_queue e H) as [Q1 Q2]. split.
    + intros t Ht. rewrite ntasks_sched_v. apply in_app_iff in Ht as [Ht | [<- | []]].
      * destruct (Q1 t Ht) as [A B]. rewrite (st_spawn_old v e nid p t A). split; [lia | exact B].
      * rewrite st_spawn_new. split; [lia | now left].
    + apply NoDup_snoc; [exact Q2|]. intros Hin. destruct (Q1 _ Hin). lia.
  - pose proof (sia_ps e H) as P. unfold PS in *. destruct (sia_root e H) as (A & _). rewrite (st_spawn_old v e nid p 0 A). exact P.
Qed.
Lemma parent_spawn_child v e nid p : SIa (sched_v v e nid p) -> p < ntasks e -> kind e p <> KAct ->
  n_kind (nd e nid) = child_kind (kind e p) -> parent (sched_v v e nid p) (ntasks e) = Some p.
Proof.
  intros H Hp Hk Hc.
  apply (parent_child _ _ p H); rewrite ?ntasks_sched_v, ?tk_spawn_new, ?kind_spawn_new, ?(kind_spawn_old v e nid p p Hp); auto; lia.
Qed.
Lemma parent_spawn_next v e nid p : SIa e -> SIa (sched_v v e nid p) -> p < ntasks e -> n_kind (nd e nid) = kind e p ->
  parent (sched_v v e nid p) (ntasks e) = parent e p.
Proof.
  intros H H' Hp Hk. rewrite <- (parent_spawn_old v e nid p p (SIa_W e H) Hp).
  apply (parent_nextlink _ _ p H'); rewrite ?ntasks_sched_v, ?tk_spawn_new, ?kind_spawn_new, ?(kind_spawn_old v e nid p p Hp); auto; lia.
Qed.
Lemma PX_spawn v X e nid p : SIa e -> PX X e -> PX X (sched_v v e nid p).
Proof.
  intros H HP t Ht Ho. destruct (spawn_old_or_new _ _ _ _ _ Ht) as [Ht' | ->].
  - unfold opn in Ho. rewrite (st_spawn_old v e nid p t Ht') in Ho. destruct (HP t Ht' Ho) as [Hx | Hc]; [now left|].
    apply (clause_mono _ e _ t Hc); [now apply st_spawn_old | rewrite queue_spawn, in_app_iff; auto|].
    intros j Hj Hp Hjo. right. unfold opn. rewrite ntasks_sched_v, (parent_spawn_old v e nid p j (SIa_W e H) Hj), (st_spawn_old v e nid p j Hj). auto.
  - right; left. rewrite queue_spawn, in_app_iff. right. now left.
Qed.
Lemma clause_new e par j : j < ntasks e -> parent e j = Some par -> opn e j -> st e par = SRunning -> clause e par.
Proof. intros Hj Hp Ho Hr. right; right. split; [exact Hr|]. exists j. auto. Qed.
Lemma spawn_clause v e nid p t : t < ntasks e -> st e t = SRunning -> parent (sched_v v e nid p) (ntasks e) = Some t ->
  clause (sched_v v e nid p) t.
Proof.
  intros Ht Hr Hp.
  apply (clause_new _ t (ntasks e)); [rewrite ntasks_sched_v; lia | exact Hp | unfold opn; now rewrite st_spawn_new | now rewrite st_spawn_old].
Qed.

Lemma sameS_tasks e e' : nodes e' = nodes e -> tasks e' = tasks e -> sameS e e'.
Proof. intros Hn Ht. unfold sameS, ntasks, tk. rewrite Hn, Ht. auto. Qed.
Lemma SIa_queue e q' : SIa e -> incl q' (queue e) -> NoDup q' -> SIa (with_queue e q').
Proof. intros H Hin Hnd. constructor; try apply H. split; [|exact Hnd]. intros t Ht. apply (sia_queue e H), Hin, Ht. Qed.
Lemma PX_queue (X X' : nat -> Prop) e q' : PX X e -> (forall t, X t -> X' t) -> (forall t, In t (queue e) -> X' t \/ In t q') ->
  PX X' (with_queue e q').
Proof.
  intros H HX HQ t Ht Ho. destruct (H t Ht Ho) as [Hx | Hc]; [left; now apply HX|].
  apply (clause_mono _ e _ t Hc); [reflexivity | apply HQ|].
  intros j Hj Hp Hjo. right. rewrite (sameS_parent e _ j (sameS_tasks e (with_queue e q') eq_refl eq_refl)). auto.
Qed.
Lemma PX_pop X e i q x : PX X e -> queue e = i :: q -> PX (fun t => X t \/ t = i) (add_ev (with_queue e q) x).
Proof.
  intros H Hq. apply (PX_teq _ _ _ (teq_add_ev _ x)), (PX_queue X); [exact H | now left|].
  intros t Ht. rewrite Hq in Ht. destruct Ht as [<- | Ht]; [left; now right | now right].
Qed.


(* the hierarchy part of the invariant (C03 on the class): an open task's parent is running, and a parent has at most one
   open task at a time (tasks under one parent are started one after another) *)
Record SI (e : eng) : Prop := {
  si_a :> SIa e;
  si_up : forall j p, j < ntasks e -> parent e j = Some p -> opn e j -> st e p = SRunning;
  si_one : forall j1 j2 p, j1 < ntasks e -> j2 < ntasks e -> parent e j1 = Some p -> parent e j2 = Some p -> opn e j1 -> opn e j2 -> j1 = j2 }.
Definition si_nodes e (H : SI e) := sia_nodes e H.
Definition SI_level e t (H : SI e) := SIa_level e t H.
Definition nochild (e : eng) (p : nat) : Prop := forall j, j < ntasks e -> parent e j = Some p -> opn e j -> False.

Lemma SI_same e e' : sameS e e' -> (forall x, st e' x = st e x) -> SIa e' -> SI e -> SI e'.
Proof.
  intros HS Hst Ha H. pose proof HS as (_ & L & _). constructor; [exact Ha | |].
  - intros j p Hj Hp Ho. rewrite L in Hj. rewrite (sameS_parent _ _ j HS) in Hp. unfold opn in Ho. rewrite Hst in *. now apply (si_up e H j p).
  - intros j1 j2 p H1 H2 P1 P2 O1 O2. rewrite L in H1, H2. rewrite (sameS_parent _ _ j1 HS) in P1. rewrite (sameS_parent _ _ j2 HS) in P2. unfold opn in O1, O2. rewrite Hst in O1, O2.
    now apply (si_one e H j1 j2 p).
Qed.
Lemma SI_teq e e' : teq e e' -> SI e -> SI e'.
Proof. intros T H. apply (SI_same e e'); [now apply sameS_teq | intros x; now apply teq_st | apply (SIa_teq e e' T H) | exact H]. Qed.
Lemma SI_queue e q' : SI e -> incl q' (queue e) -> NoDup q' -> SI (with_queue e q').
Proof. intros H Hin Hnd. apply (SI_same e); [now apply sameS_tasks | reflexivity | apply SIa_queue; [apply H | exact Hin | exact Hnd] | exact H]. Qed.
Lemma SI_pop e i q x : SI e -> queue e = i :: q -> SI (add_ev (with_queue e q) x).
Proof.
  intros H Hq. destruct (sia_queue e H) as [_ Hnd]. rewrite Hq in Hnd.
  apply (SI_teq _ _ (teq_add_ev _ x)), SI_queue; [exact H | rewrite Hq; apply incl_tl, incl_refl | now inversion Hnd].
Qed.
Lemma nochild_nil e p : SIa e -> children e p = [] -> nochild e p.
Proof. intros H Hn j Hj Hp _. now apply (parent_kind e H j p Hj Hp). Qed.
Lemma nochild_act e p : SIa e -> kind e p = KAct -> nochild e p.
Proof. intros H Hk j Hj Hp _. now destruct (parent_kind e H j p Hj Hp). Qed.
Lemma SI_ss site e i s : SI e -> i < ntasks e -> okst s = true -> s <> SNone ->
  (kind e i <> KAct -> s <> SSkipped) ->
  (is_completed s = false -> is_completed (st e i) = false /\ ~ In i (queue e)) ->
  nochild e i ->
  SI (set_state site e i s).
Proof.
  intros H Hi Hok Hnn Hsk Hopen Hkids.
  assert (Ho : forall j, opn (set_state site e i s) j -> opn e j).
  { intros j. unfold opn. rewrite (st_ss site e i s j Hi). destruct (Nat.eqb_spec j i) as [->|]; [|auto]. intros Hs. now apply Hopen. }
  constructor; [apply SIa_ss; auto; apply (si_a e H) | |].
  - intros j p Hj Hp Hjo. rewrite ntasks_set_state in Hj. rewrite parent_ss in Hp.
    destruct (Nat.eq_dec p i) as [->|Hne]; [destruct (Hkids j Hj Hp (Ho j Hjo))|].
    rewrite (st_set_state_other site e i s p Hne). apply (si_up e H j p Hj Hp (Ho j Hjo)).
  - intros j1 j2 p H1 H2 P1 P2 O1 O2. rewrite ntasks_set_state in H1, H2. rewrite parent_ss in P1, P2.
    apply (si_one e H j1 j2 p); auto.
Qed.
Lemma SI_spawn v e nid p : SI e -> SIa (sched_v v e nid p) ->
  (forall par, parent (sched_v v e nid p) (ntasks e) = Some par -> st e par = SRunning /\ nochild e par) ->
  SI (sched_v v e nid p).
Proof.
  intros H Ha Hnew. set (e' := sched_v v e nid p) in *.
  assert (Hpo : forall t, t < ntasks e -> parent e' t = parent e t) by (intros t; apply parent_spawn_old, (SIa_W e H)).
  assert (Hold : forall j, j < ntasks e -> opn e' j -> opn e j) by (intros j Hj; unfold opn, e'; now rewrite st_spawn_old).
  assert (Hup : forall j q, j < ntasks e' -> parent e' j = Some q -> st e' q = st e q).
  { intros j q Hj Hq. pose proof (parent_lt e' j q (SIa_W e' Ha) Hj Hq). unfold e' in *. rewrite ntasks_sched_v in Hj. apply st_spawn_old. lia. }
  constructor; [exact Ha | |].
  - intros j q Hj Hq Hjo. rewrite (Hup j q Hj Hq). destruct (spawn_old_or_new _ _ _ _ _ Hj) as [Hj' | ->]; [|apply (Hnew q Hq)].
    rewrite (Hpo j Hj') in Hq. apply (si_up e H j q Hj' Hq (Hold j Hj' Hjo)).
  - intros j1 j2 q H1 H2 P1 P2 O1 O2.
    destruct (spawn_old_or_new _ _ _ _ _ H1) as [Hj1 | ->], (spawn_old_or_new _ _ _ _ _ H2) as [Hj2 | ->]; [| exfalso | exfalso | reflexivity].
    + rewrite (Hpo j1 Hj1) in P1. rewrite (Hpo j2 Hj2) in P2. apply (si_one e H j1 j2 q); auto.
    + destruct (Hnew q P2) as [_ Hnc]. rewrite (Hpo j1 Hj1) in P1. apply (Hnc j1 Hj1 P1 (Hold j1 Hj1 O1)).
    + destruct (Hnew q P1) as [_ Hnc]. rewrite (Hpo j2 Hj2) in P2. apply (Hnc j2 Hj2 P2 (Hold j2 Hj2 O2)).
Qed.
Lemma teq_emit_SI f e i : SI e -> i < ntasks e -> teq e (emit (S f) e i).
Proof.
  intros H Hi. destruct (sia_task e H i Hi) as (Hok & _). apply teq_emit; [apply (sia_nh e H) | intros E; rewrite E in Hok; discriminate|].
  apply (wf_root e i H Hi).
Qed.
Lemma teq_emit_upd f e i cv : SI e -> i < ntasks e -> teq e (emit (S f) (update_data e i cv) i).
Proof.
  intros H Hi. pose proof (teq_update_data e i cv) as T. apply (teq_trans _ _ _ T), teq_emit_SI; [now apply (SI_teq e) | now rewrite (teq_len _ _ T)].
Qed.

Definition Good (e : eng) : Prop := SI e /\ Prog e.
Lemma Good_teq e e' : teq e e' -> Good e -> Good e'.
Proof. intros T [A B]. split; [eapply SI_teq; eauto | eapply PX_teq; eauto]. Qed.
(* `children e p` holds the tasks whose prev is p, the successor of p among them; that p is running rules the successor out *)
Lemma child_parent e p c : SIa e -> st e p = SRunning -> In c (children e p) -> parent e c = Some p /\ c < ntasks e.
Proof.
  intros H Hr Hc. pose proof (children_lt _ _ _ Hc) as Hcn. pose proof (children_gt _ _ _ (SIa_W e H) Hc) as Hgt.
  destruct (sia_prev e H c ltac:(lia) Hcn) as (q & A & B & C & D). rewrite (children_prev _ _ _ Hc) in A. inversion A; subst q.
  destruct D as [[D1 D2] | [_ D2]]; [|rewrite Hr in D2; discriminate].
  split; [apply (parent_child e c p H); auto; now apply children_prev | exact Hcn].
Qed.

Lemma nochild_teq e e' p : teq e e' -> nochild e p -> nochild e' p.
Proof.
  intros T H j Hj Hp Ho. rewrite (teq_len _ _ T) in Hj. rewrite (teq_parent _ _ j T) in Hp. unfold opn in Ho. rewrite (teq_st _ _ j T) in Ho.
  exact (H j Hj Hp Ho).
Qed.
Lemma after_close site e i s pp : SI e -> i < ntasks e -> opn e i -> is_completed s = true -> parent e i = Some pp ->
  st (set_state site e i s) pp = SRunning /\ nochild (set_state site e i s) pp.
Proof.
  intros H Hi Ho Hs Hp. pose proof (parent_lt e i pp (SIa_W e H) Hi Hp) as Hlt. split.
  - rewrite (st_ss site e i s pp Hi). destruct (Nat.eqb_spec pp i); [lia|]. apply (si_up e H i pp Hi Hp Ho).
  - intros j Hj Hpj Hjo. rewrite ntasks_set_state in Hj. rewrite parent_ss in Hpj.
    unfold opn in Hjo. rewrite (st_ss site e i s j Hi) in Hjo. destruct (Nat.eqb_spec j i) as [->|Hne]; [congruence|].
    apply Hne. apply (si_one e H j i pp); auto.
Qed.
(* Fuel.  A hand-over from a task of level l (workflow 0, step 1, act 2) makes l reviews, one unit each, and the last of them
   emits with what is left: l + 1 (handover_good).  `next` spends one unit before it hands over (next_end_good), so `next` on
   an act needs 4, which is what is kept of fuel_of e >= 16. *)
Lemma fuel_ge e : exists f, fuel_of e = S (S (S (S f))). Proof. unfold fuel_of. eexists. cbn [Nat.add]. reflexivity. Qed.
(* a task that has just been closed: only its parent, running with nothing open beneath it, has still to be looked after *)
Record Closed (i : nat) (e : eng) : Prop := {
  cl_si : SI e; cl_lt : i < ntasks e; cl_st : is_completed (st e i) = true;
  cl_px : PX (fun t => parent e i = Some t) e;
  cl_par : forall pp, parent e i = Some pp -> st e pp = SRunning /\ nochild e pp }.
Arguments cl_si {i e}. Arguments cl_lt {i e}. Arguments cl_st {i e}. Arguments cl_px {i e}. Arguments cl_par {i e}.
Lemma Closed_teq i e e' : teq e e' -> Closed i e -> Closed i e'.
Proof.
  intros T [H Hi Hc P Q]. constructor; [eapply SI_teq; eauto | now rewrite (teq_len _ _ T) | now rewrite (teq_st _ _ i T) | |].
  - rewrite (teq_parent _ _ i T). now apply (PX_teq _ e).
  - intros pp Hpp. rewrite (teq_parent _ _ i T) in Hpp. destruct (Q pp Hpp). split; [now rewrite (teq_st _ _ pp T) | eapply nochild_teq; eauto].
Qed.
Lemma Closed_top i e : Closed i e -> parent e i = None -> Good e.
Proof. intros C Ep. split; [apply C|]. apply (PX_weaken _ _ _ (cl_px C)). intros t Hx. congruence. Qed.
Lemma close_task site e i s : SI e -> PX (fun t => t = i) e -> i < ntasks e -> opn e i -> nochild e i ->
  is_completed s = true -> okst s = true -> (kind e i <> KAct -> s <> SSkipped) -> Closed i (set_state site e i s).
Proof.
  intros H P Hi Ho Hnc Hc Hok Hsk. pose proof parent_ss as Hpar.
  constructor.
  - apply SI_ss; auto; [intros ->; discriminate | intros Hf; congruence].
  - now rewrite ntasks_set_state.
  - now rewrite st_set_state_in.
  - rewrite Hpar. apply (PX_ss site (fun t => t = i)); auto; congruence.
  - intros pp Hpp. rewrite Hpar in Hpp. now apply (after_close site e i s pp H Hi Ho Hc).
Qed.
(* the successor of a closed task is started: its parent has an open task again *)
Lemma succ_good e i nx : Closed i e -> n_next (tnode e i) = Some nx ->
  let e1 := sched_next e nx i in Good e1 /\ i < ntasks e1 /\ st e1 i = st e i.
Proof.
  intros [H Hi Hc HP Hpar] Hnx. destruct (fk_next _ _ (task_ok e i H Hi) nx Hnx) as (Fl & Fk & Hk).
  assert (Ha : SIa (sched_next e nx i)) by (apply SIa_spawn; auto; [apply H | intros Hn; rewrite Hn in Hc; discriminate]).
  pose proof (parent_spawn_next VNext e nx i H Ha Hi Fk) as Hnew.
  split; [|split; [unfold sched_next; rewrite ntasks_sched_v; lia | now apply st_spawn_old]].
  split; [apply SI_spawn; auto; now rewrite Hnew|]. apply (PX_weaken _ _ _ (PX_spawn VNext _ e nx i H HP)). intros t Hpt _ _. right.
  destruct (Hpar t Hpt) as [Hrt _]. pose proof (parent_lt e i t (SIa_W e H) Hi Hpt) as Hlt.
  apply spawn_clause; [lia | exact Hrt | now rewrite Hnew].
Qed.
(* handing over: the parent of a closed task is reviewed; nothing is open beneath it (one task at a time), so it is closed
   and emitted, and starts its successor or hands over in turn *)
Lemma children_closed e t : SI e -> st e t = SRunning -> nochild e t -> forall c, In c (children e t) -> is_completed (st e c) = true.
Proof.
  intros H Hr Hnc c Hc. destruct (is_completed (st e c)) eqn:Eo; [reflexivity|]. exfalso.
  destruct (child_parent e t c H Hr Hc) as [Hpc Hcn]. exact (Hnc c Hcn Hpc Eo).
Qed.
Lemma handover_good : forall F cv e i, Closed i e -> lvl_of (kind e i) + 1 <= F -> Good (handover F cv e i).
Proof.
  induction F as [|f IH]; intros cv e i C HF; [lia|]. unfold handover.
  destruct (parent e i) as [p|] eqn:Ep.
  2:{ exact (Closed_top i e C Ep). }
  assert (Hf : 2 <= S f) by (destruct (parent_level e i p (cl_si C) (cl_lt C) Ep); lia). destruct f as [|f']; [lia|]. clear Hf.
  rewrite review_phases, (proj2 (sia_nh e (cl_si C) i)). cbv zeta.
  (* the outputs of i are merged into p first, a quiet step; all that follows speaks of the state e0 after it only *)
  pose proof (teq_update_data e p (outputs e i)) as T0. apply (Closed_teq i _ _ T0) in C.
  rewrite <- (teq_kind _ _ i T0) in HF. rewrite <- (teq_parent _ _ i T0) in Ep.
  set (e0 := update_data e p (outputs e i)) in *. clearbody e0. clear T0 e. destruct C as [H0 Hi _ P Q].
  destruct (Q p Ep) as [Hr0 Hnc0]. destruct (parent_level e0 i p H0 Hi Ep) as [Hlt Hlv]. destruct (parent_kind e0 H0 i p Hi Ep) as [Hna _].
  assert (Hp0 : p < ntasks e0) by lia.
  assert (P0 : PX (fun t => t = p) e0) by (apply (PX_weaken _ _ _ P); intros t Ht _ _; left; congruence).
  pose proof (children_closed e0 p H0 Hr0 Hnc0) as Hd.
  (* nothing is open beneath p: it is closed in turn, and unless it starts a successor it hands over *)
  assert (Hcl : forall site, Closed p (set_state site e0 p SCompleted)).
  { intros site. apply close_task; auto; [unfold opn; now rewrite Hr0 | discriminate]. }
  assert (Hdone : forall site, Good (review_end (S f') cv p SRunning (true, set_state site e0 p SCompleted))).
  { intros site. pose proof (Hcl site) as Cs. rewrite (review_end_closed _ _ _ SRunning _ _ eq_refl) by apply (cl_st Cs).
    pose proof (teq_emit_SI f' _ p (cl_si Cs) (cl_lt Cs)) as T2. apply IH.
    - apply (Closed_teq p _ _ T2 Cs).
    - rewrite (teq_kind _ _ p T2), kind_ss. lia. }
  rewrite Hr0. destruct (kind e0 p) eqn:Ek.
  - destruct (review_head_container (S f') cv e0 p (or_introl Ek) Hr0) as [site ->].
    rewrite (proj2 (forallb_forall _ _)) by (intros c Hc; now rewrite (Hd c Hc)). apply Hdone.
  - exfalso. exact (no_branch e0 p H0 Hp0 Ek).
  - rewrite review_head_step, (proj2 (forallb_forall _ _) Hd) by (auto; intros c Hc; specialize (Hd c Hc); now destruct (st e0 c)).
    unfold finish. rewrite Hr0. cbn [is_completed negb]. specialize (Hcl 16). set (ec := set_state 16 e0 p SCompleted) in *.
    destruct (n_next (tnode ec p)) as [nx|] eqn:Enx; [|apply Hdone].
    destruct (succ_good ec p nx Hcl Enx) as (G2 & Hp2 & S2).
    rewrite (review_end_closed _ _ _ SRunning _ _ eq_refl) by (rewrite S2; apply (cl_st Hcl)).
    apply (Good_teq _ _ (teq_emit_SI f' _ p (proj1 G2) Hp2) G2).
  - now elim Hna.
Qed.

(* nxo is the successor that the kind's part of `next` has decided to start: what next_head returns over a task it has closed
   (finish) or found closed (next_head_closed_act, next_head_workflow) is this match, with nxo the task's n_next or None *)
Lemma next_end_good f cv e i nxo : Closed i e -> (nxo = None \/ nxo = n_next (tnode e i)) -> lvl_of (kind e i) + 1 <= f ->
  Good (next_end f cv i (match nxo with Some nx => (true, sched_next e nx i) | None => (false, e) end)).
Proof.
  intros C Hnx Hf. unfold next_end. pose proof C as [H Hi Hc _ _]. destruct f as [|f']; [lia|].
  destruct nxo as [nx|].
  - destruct Hnx as [Hnx | Hnx]; [discriminate|]. destruct (succ_good e i nx C (eq_sym Hnx)) as (G1 & Hi1 & S1).
    rewrite S1, Hc. cbn [negb andb]. apply (Good_teq _ _ (teq_emit_upd f' _ i cv (proj1 G1) Hi1) G1).
  - rewrite Hc. pose proof (teq_emit_upd f' e i cv H Hi) as T2. set (e2 := emit (S f') (update_data e i cv) i) in *.
    destruct (sia_nh e2 (SI_teq _ _ T2 H) i) as [_ ->]. cbn [negb andb].
    apply handover_good; [now apply (Closed_teq i e) | now rewrite (teq_kind _ _ i T2)].
Qed.

Lemma next_closed_act F cv e i : Closed i e -> kind e i = KAct -> 4 <= F -> Good (next F cv e i).
Proof.
  intros C Hk HF. destruct F as [|f]; [lia|]. rewrite next_phases, (next_head_closed_act f cv e i Hk (cl_st C)).
  destruct (_ || _); [apply (next_end_good f cv e i (n_next (tnode e i))) | apply (next_end_good f cv e i None)]; auto; rewrite Hk; cbn [lvl_of]; lia.
Qed.

Lemma Prog_close_act site e i s : Good e -> i < ntasks e -> opn e i -> kind e i = KAct ->
  is_completed s = true -> okst s = true -> Closed i (set_state site e i s).
Proof.
  intros [H P] Hi Ho Hk Hc Hok. apply close_task; auto; [apply (PX_weaken _ _ _ P); intros t [] | apply (nochild_act e i H Hk)].
Qed.
Lemma act_closed_good site e i s cv : Good e -> i < ntasks e -> opn e i -> kind e i = KAct ->
  (s = SCompleted \/ s = SSubmitted \/ s = SRemoved \/ s = SSkipped) -> Good (next (fuel_of e) cv (set_state site e i s) i).
Proof.
  intros G Hi Ho Hk Hs. apply next_closed_act.
  - apply Prog_close_act; auto; destruct Hs as [-> | [-> | [-> | ->]]]; reflexivity.
  - now rewrite kind_ss.
  - destruct (fuel_ge e) as [f ->]. lia.
Qed.
(* skip closes the open siblings first: in this class there are none (one open task per parent) *)
Lemma siblings_closed e i : SI e -> i < ntasks e -> opn e i -> forall j, In j (siblings e i) -> is_completed (st e j) = true.
Proof.
  intros H Hi Ho j Hj. unfold siblings in Hj. destruct (parent e i) as [p|] eqn:Ep; [|destruct Hj].
  apply filter_In in Hj as [Hc Hne]. apply negb_true_iff, Nat.eqb_neq in Hne.
  destruct (is_completed (st e j)) eqn:Eo; [reflexivity|]. exfalso.
  destruct (child_parent e p j H (si_up e H i p Hi Ep Ho) Hc) as [Hpj Hjn]. apply Hne, (si_one e H j i p); auto.
Qed.
Lemma close_open_noop site e l s : (forall j, In j l -> is_completed (st e j) = true) -> close_open site e l s = e.
Proof. intros Hl. apply fold_left_id. intros j Hj. now rewrite (Hl j Hj). Qed.
Lemma ancestors_root e : SIa e -> forall f a, a < f -> a < ntasks e -> In 0 (ancestors f e (Some a)).
Proof.
  intros H. induction f as [|f IH]; intros a Hf Ha; [lia|]. cbn [ancestors].
  destruct a as [|a]; [now left | right]. destruct (has_parent e H (S a) ltac:(lia) Ha) as (g & Hg). rewrite Hg.
  pose proof (parent_lt e (S a) g (SIa_W e H) Ha Hg). apply IH; lia.
Qed.
Lemma ancestors_link e q : forall f p0, In q (ancestors f e p0) -> p0 = Some q \/ exists a, In a (ancestors f e p0) /\ parent e a = Some q.
Proof.
  induction f as [|f IH]; intros p0 Hin; [destruct Hin|]. destruct p0 as [a0|]; [|destruct Hin]. cbn [ancestors] in *.
  destruct Hin as [-> | Hin]; [now left | right].
  destruct (IH _ Hin) as [Hp | (a & Ha & Hp)]; [exists a0; split; [now left | exact Hp] | exists a; split; [now right | exact Hp]].
Qed.
Lemma ancestors_running e : SI e -> forall f a0, a0 < ntasks e -> st e a0 = SRunning ->
  forall a, In a (ancestors f e (Some a0)) -> a < ntasks e /\ st e a = SRunning.
Proof.
  intros H. induction f as [|f IH]; intros a0 Ha0 Hr a Hin; [destruct Hin|]. cbn [ancestors] in Hin.
  destruct Hin as [<- | Hin]; [auto|]. destruct (parent e a0) as [g|] eqn:Eg; [|destruct f; destruct Hin].
  pose proof (parent_lt e a0 g (SIa_W e H) Ha0 Eg). apply (IH g); auto; [lia|]. apply (si_up e H a0 g Ha0 Eg). unfold opn. now rewrite Hr.
Qed.
(* beside a task that has just been closed, what is open is on its parent chain: an open task t has a running parent q,
   on the chain by induction; q is not the parent of the closed task, which has nothing open beneath it, so q is the parent
   of a task of the chain, and that task is t, the one open task beneath q *)
Lemma open_on_chain e i : Closed i e -> forall t, t < ntasks e -> opn e t -> In t (ancestors (S (length (tasks e))) e (parent e i)).
Proof.
  intros [H Hi Hc _ Q]. induction t as [t IH] using lt_wf_ind. intros Ht Ho. destruct t as [|t'].
  - destruct i as [|i']; [unfold opn in Ho; congruence|]. destruct (has_parent e H (S i') ltac:(lia) Hi) as (pp & Hpp). rewrite Hpp.
    pose proof (parent_lt e _ pp (SIa_W e H) Hi Hpp). apply (ancestors_root e H); unfold ntasks in *; lia.
  - destruct (has_parent e H (S t') ltac:(lia) Ht) as (q & Hq). pose proof (parent_lt e _ q (SIa_W e H) Ht Hq) as Hlt.
    pose proof (si_up e H _ q Ht Hq Ho) as Hqr.
    assert (Hqin := IH q Hlt ltac:(lia) ltac:(unfold opn; now rewrite Hqr)).
    destruct (parent e i) as [pp|] eqn:Epp; [|destruct Hqin].
    destruct (Q pp eq_refl) as [Hppr Hnc]. pose proof (parent_lt e i pp (SIa_W e H) Hi Epp).
    destruct (ancestors_link e q _ _ Hqin) as [E | (a & Ha & Hpa)].
    + inversion E; subst q. destruct (Hnc (S t') Ht Hq Ho).
    + destruct (ancestors_running e H _ pp ltac:(lia) Hppr a Ha) as [Han Har].
      rewrite (si_one e H (S t') a q Ht Han Hq Hpa Ho ltac:(unfold opn; now rewrite Har)). exact Ha.
Qed.
Lemma teq_ret_ok e : teq e (ret_ok e). Proof. unfold ret_ok. eapply teq_trans; [apply teq_persist | apply teq_add_ev]. Qed.
Lemma sweep_noop e skip : (forall t, t < ntasks e -> is_completed (st e t) = true \/ In t skip) -> abort_sweep e skip = e.
Proof.
  intros Hall. apply fold_left_id. intros t Ht. apply in_seq in Ht.
  destruct (Hall t (proj2 Ht)) as [Hc | Hin]; [now rewrite Hc|].
  replace (existsb (Nat.eqb t) skip) with true; [now rewrite orb_true_r|].
  symmetry. apply existsb_exists. exists t. split; [exact Hin | apply Nat.eqb_refl].
Qed.
(* abort_up: each ancestor of the closed task in turn is running with nothing open beneath it; it is written aborted,
   emitted, and is the closed task of the next round *)
Lemma abort_up_good : forall f e c, Closed c e -> c <= f -> Good (abort_up f e (parent e c)).
Proof.
  induction f as [|f IH]; intros e c C Hf; pose proof C as [H Hc _ P Q].
  all: destruct (parent e c) as [t|] eqn:Ep;
    [pose proof (parent_lt e c t (SIa_W e H) Hc Ep) as Hlt | exact (Closed_top c e C Ep)].
  - lia.
  - destruct (Q t eq_refl) as [Hr Hnc]. assert (Ht : t < ntasks e) by lia.
    rewrite abort_up_S, Hr. change (is_completed SRunning) with false. cbv iota.
    destruct (fuel_ge e) as [f0 ->]. set (es := set_state 28 e t SAborted).
    assert (Cs : Closed t es).
    { apply close_task; auto; [apply (PX_weaken _ _ _ P); intros x Hx _ _; left; congruence | unfold opn; now rewrite Hr | discriminate]. }
    pose proof (teq_emit_SI (S (S (S f0))) es t (cl_si Cs) (cl_lt Cs)) as T. set (e1 := emit _ es t) in *.
    (* its children are closed: the loop over them finds nothing to skip or abort *)
    rewrite fold_left_id.
    + apply IH; [now apply (Closed_teq t es) | lia].
    + intros x Hx. rewrite (teq_children _ _ t T) in Hx. unfold es in Hx. rewrite children_ss in Hx.
      assert (Hcx : is_completed (st e1 x) = true).
      { rewrite (teq_st _ _ x T). unfold es. rewrite (st_ss 28 e t SAborted x Ht). destruct (Nat.eqb x t); [reflexivity|]. apply (children_closed e t H Hr Hnc x Hx). }
      destruct (st e1 x); (discriminate || reflexivity).
Qed.
Lemma abort_stage2 e2 i : Closed i e2 -> Good (ret_ok (abort_rest e2 i)).
Proof.
  intros C. unfold abort_rest. rewrite sweep_noop; cbv zeta.
  - apply (Good_teq _ _ (teq_ret_ok _)), abort_up_good; [exact C | pose proof (cl_lt C); unfold ntasks in *; lia].
  - intros t Ht. destruct (is_completed (st e2 t)) eqn:Ec; [now left | right]. now apply open_on_chain.
Qed.
Lemma abort_good e i cv : Good e -> i < ntasks e -> opn e i -> kind e i = KAct -> Good (perform e i AAbort cv).
Proof.
  intros G Hi Eo Ek. rewrite perform_abort.
  rewrite (close_open_noop 26 e (siblings e i) SSkipped) by (apply siblings_closed; auto; apply G). cbv zeta.
  pose proof (Prog_close_act 27 e i SAborted G Hi Eo Ek eq_refl eq_refl) as C1.
  set (x2 := emit (fuel_of e) (set_data (set_state 27 e i SAborted) i cv) i).
  assert (T2 : teq (set_state 27 e i SAborted) x2).
  { eapply teq_trans; [apply teq_set_data|]. destruct (fuel_ge e) as [f Hf]. unfold x2. rewrite Hf.
    apply teq_emit_SI; [eapply SI_teq; [apply teq_set_data | apply (cl_si C1)] | rewrite (teq_len _ _ (teq_set_data _ i cv)); apply (cl_lt C1)]. }
  apply (abort_stage2 x2 i). now apply (Closed_teq i _ _ T2).
Qed.
Lemma action_good e i a opts : Good e -> allowed a = true -> Good (do_action e i a opts).
Proof.
  intros G Ha. unfold do_action. destruct (admission e i a opts) as [[cv a']|] eqn:Ead.
  2:{ apply (Good_teq e); [apply teq_add_ev | exact G]. }
  destruct (admission_some _ _ _ _ _ _ Ead) as (_ & Hi & Ek & _ & Eo). pose proof (admission_keeps _ _ _ _ _ _ Ead) as K.
  destruct a; try discriminate Ha; subst a'; specialize (Eo eq_refl); unfold perform; try (apply (Good_teq _ _ (teq_ret_ok _)), act_closed_good; now auto).
  - rewrite (close_open_noop 26 e (siblings e i) SSkipped) by (apply siblings_closed; [apply G | exact Hi | exact Eo]).
    apply (Good_teq _ _ (teq_ret_ok _)), act_closed_good; auto 6.
  - now apply abort_good.
Qed.

Lemma no_children e i : SI e -> st e i = SNone -> children e i = [].
Proof.
  intros H Hs. destruct (children e i) as [|j l] eqn:E; [reflexivity | exfalso].
  assert (Hj : In j (children e i)) by (rewrite E; now left).
  pose proof (children_gt e i j (SIa_W e H) Hj) as Hgt.
  destruct (sia_prev e H j ltac:(lia) (children_lt e i j Hj)) as (q & A & _ & C & _).
  rewrite (children_prev e i j Hj) in A. inversion A; subst q. contradiction.
Qed.
Lemma children_spawn v e nid p x : children (sched_v v e nid p) x = children e x ++ (if Nat.eqb p x then [ntasks e] else []).
Proof.
  unfold children. fold (ntasks (sched_v v e nid p)). rewrite ntasks_sched_v, seq_S, filter_app. cbn [Nat.add filter]. f_equal.
  - apply filter_ext_in. intros j Hj. apply in_seq in Hj. rewrite tk_sched_v. destruct (Nat.eqb_spec j (ntasks e)); [unfold ntasks in *; lia | reflexivity].
  - rewrite tk_sched_v, Nat.eqb_refl. cbn [new_task t_prev]. destruct (Nat.eqb p x); reflexivity.
Qed.

(* exec after init (Unfold.exec_rest) on the tasks of the class: none is pending, no act fails *)
Lemma exec_fresh f cv e i : st e i = SNone -> exec f cv e i = exec_rest f cv (exec_init f e i) i.
Proof. intros Hs. rewrite exec_stages, Hs. reflexivity. Qed.
Lemma exec_rest_irq f cv e i : exn e = false -> st e i = SInterrupt -> exec_rest f cv e i = next f cv e i.
Proof.
  intros Hx Hst. unfold exec_rest, exec_wake. rewrite Hx, Hst. change (is SInterrupt SPending) with false. cbv iota.
  unfold exec_go, exec_fails. rewrite Hst. change (is SInterrupt SReady) with false. rewrite andb_false_r. reflexivity.
Qed.
Lemma exec_rest_ready f cv e i : exn e = false -> st e i = SReady -> (kind e i = KWorkflow \/ kind e i = KStep) ->
  exec_rest f cv e i = next f cv (emit f (kind_run (set_state 7 e i SRunning) i) i) i.
Proof.
  intros Hx Hst Hk. unfold exec_rest, exec_wake. rewrite Hx, Hst. change (is SReady SPending) with false. cbv iota.
  unfold exec_go, exec_fails. rewrite Hst. change (is SReady SReady) with true. destruct Hk as [-> | ->]; reflexivity.
Qed.
Lemma exec_rest_msg f cv e i : exn e = false -> st e i = SReady -> kind e i = KAct -> sp_u (n_spec (tnode e i)) = UMsg ->
  n_isset (tnode e i) = false -> n_children (tnode e i) = [] ->
  exec_rest f cv e i = next f cv (emit f (set_silent (set_state 7 e i SRunning) i false) i) i.
Proof.
  intros Hx Hst Hk Hu His Hch. set (er := set_state 7 e i SRunning).
  assert (Tr : tnode er i = tnode e i) by apply tnode_ss.
  assert (T0 : tnode (set_silent er i false) i = tnode e i) by (rewrite (teq_tnode _ _ i (teq_set_silent er i false)); exact Tr).
  unfold exec_rest, exec_wake. rewrite Hx, Hst. change (is SReady SPending) with false. cbv iota.
  unfold exec_go, exec_fails. rewrite Hst, Hk, Hu. change (is SReady SReady) with true.
  cbn [nkind_beq is_fail andb]. cbv iota. fold er. unfold kind_run, act_run, kind. rewrite !Tr. fold (kind e i). rewrite Hk, Hu. cbv iota zeta.
  rewrite T0, His. cbv iota. rewrite T0. unfold normal_children, children_in. rewrite Hch. reflexivity.
Qed.
Lemma next_irq f cv e i : st e i = SInterrupt -> next (S f) cv e i = e.
Proof. intros Hs. rewrite next_phases. unfold next_head. rewrite Hs. apply next_end_open. now rewrite Hs. Qed.

(* the task being executed: taken from the queue and alone excused, its node n, its state s, nothing started beneath it *)
Record At (i : nat) (n : node) (s : TaskState) (e : eng) : Prop := {
  at_si : SI e; at_px : PX (fun t => t = i) e; at_lt : i < ntasks e; at_node : tnode e i = n; at_st : st e i = s;
  at_nq : ~ In i (queue e); at_nc : children e i = [] }.
Arguments at_si {i n s e}. Arguments at_px {i n s e}. Arguments at_lt {i n s e}. Arguments at_node {i n s e}.
Arguments at_st {i n s e}. Arguments at_nq {i n s e}. Arguments at_nc {i n s e}.
Lemma At_teq i n s e e' : teq e e' -> At i n s e -> At i n s e'.
Proof.
  intros T [H P Hi Hn Hs Hq Hc].
  constructor; [eapply SI_teq; eauto | eapply PX_teq; eauto | now rewrite (teq_len _ _ T) | now rewrite (teq_tnode _ _ i T) | now rewrite (teq_st _ _ i T) | | now rewrite (teq_children _ _ i T)].
  destruct T as (_ & -> & _). exact Hq.
Qed.
Lemma At_open site i n s s' e : At i n s e -> is_completed s = false ->
  okst s' = true -> s' <> SNone -> is_completed s' = false -> At i n s' (set_state site e i s').
Proof.
  intros [H P Hi Hn Hs Hq Hc] Ho Hok Hnn Ho'. constructor.
  - apply SI_ss; auto; [intros _ ->; discriminate | intros _; now rewrite Hs | now apply (nochild_nil e i H)].
  - apply (PX_ss site (fun t => t = i)); auto; congruence.
  - now rewrite ntasks_set_state.
  - now rewrite tnode_ss.
  - now apply st_set_state_in.
  - now rewrite queue_set_state.
  - now rewrite children_ss.
Qed.
Lemma At_emit f i n s e : At i n s e -> At i n s (emit (S f) e i).
Proof. intros A. apply (At_teq _ _ _ e); [apply teq_emit_SI; [apply (at_si A) | apply (at_lt A)] | exact A]. Qed.
Lemma At_ok i n s e : At i n s e -> frag_ok (nodes e) n.
Proof. intros [H _ Hi <- _ _ _]. apply (task_ok e i H Hi). Qed.
Lemma At_kind i n s e : At i n s e -> kind e i = n_kind n.
Proof. intros A. unfold kind. now rewrite (at_node A). Qed.
Arguments At_ok {i n s e}. Arguments At_kind {i n s e}.
Lemma At_close site i n s s' e : At i n s e -> is_completed s = false ->
  is_completed s' = true -> okst s' = true -> s' <> SSkipped -> Closed i (set_state site e i s').
Proof. intros [H P Hi _ Hs _ Hc] Ho Hc' Hok Hsk. apply close_task; auto; [unfold opn; now rewrite Hs | now apply (nochild_nil e i H)]. Qed.

(* Task::init leaves a fresh task of the class waiting for a client if it is an interactive act, ready otherwise *)
Definition started (n : node) : TaskState := match n_kind n, sp_u (n_spec n) with KAct, UIrq => SInterrupt | _, _ => SReady end.
Lemma started_open n : is_completed (started n) = false.
Proof. unfold started. destruct (n_kind n), (sp_u (n_spec n)); reflexivity. Qed.
Lemma At_kind_init i n e : At i n SReady e -> At i n (started n) (kind_init e i).
Proof.
  intros A. pose proof (At_ok A) as F.
  assert (A' : At i n SReady (set_timeouts (set_catches e i (n_catches n)) i (n_timeouts n))).
  { apply (At_teq _ _ _ e); [eapply teq_trans; [apply teq_set_catches | apply teq_set_timeouts] | exact A]. }
  unfold kind_init, started. rewrite (at_node A), (fk_if _ _ F), (fk_setup _ _ F). destruct (n_kind n) eqn:Ek; cbn [eval_if dispatch_setup].
  - exact A.
  - now elim (fk_kind _ _ F).
  - exact A'.
  - destruct (fk_act _ _ F Ek) as [[Fu | Fu] _]; rewrite Fu; apply (At_open _ _ _ SReady); auto; try discriminate.
    apply (At_teq _ _ _ _ _ (teq_set_silent _ i true) A').
Qed.
Lemma At_init f i n e : At i n SNone e -> At i n (started n) (exec_init (S f) e i).
Proof.
  intros A. unfold exec_init.
  assert (A1 : At i n (started n) (kind_init (set_state 1 (set_data e i (inputs e i)) i SReady) i)).
  { apply At_kind_init, (At_open _ _ _ SNone); auto; try discriminate. apply (At_teq _ _ _ e); [apply teq_set_data | exact A]. }
  cbv zeta. set (ea := kind_init _ i) in *.
  rewrite (sia_exn ea (at_si A1)), (at_st A1), started_open. cbn [negb]. now apply At_emit.
Qed.

Lemma next_over f cv e i j : (kind e i = KWorkflow \/ kind e i = KStep) -> st e i = SRunning ->
  children e i = [j] -> st e j = SNone -> next (S f) cv e i = e.
Proof.
  intros Hk S2 Hch Hj. rewrite next_phases.
  assert (E : exists b, next_head f cv e i = (b, e)).
  { destruct Hk as [Hk | Hk]; [now apply next_head_workflow | exists true].
    unfold next_head. rewrite Hk, S2, Hch. cbn [fold_left]. rewrite Hj.
    change (is SNone SNone || is SNone SRunning) with true. cbv beta iota zeta. rewrite Hch. cbn [forallb]. now rewrite Hj. }
  destruct E as [b ->]. apply next_end_open. now rewrite S2.
Qed.
Lemma next_done f cv i n e : At i n SRunning e -> (n_kind n = KStep \/ n_kind n = KAct) ->
  Good (next (S (S (S (S f)))) cv e i).
Proof.
  intros A Hk. rewrite <- (At_kind A) in Hk. rewrite next_phases, (next_head_childless _ cv e i Hk (at_st A) (at_nc A)).
  unfold finish. rewrite (at_st A). cbn [is_completed negb].
  apply next_end_good.
  - apply (At_close 12 i n SRunning); auto; discriminate.
  - now right.
  - rewrite kind_ss. destruct Hk as [-> | ->]; cbn [lvl_of]; lia.
Qed.
Lemma next_root_done f cv e i : Closed i e -> kind e i = KWorkflow -> Good (next (S (S f)) cv e i).
Proof.
  intros C K. destruct (next_head_workflow (S f) cv e i K) as [b Eb]. rewrite next_phases, Eb.
  destruct b; [|apply (next_end_good _ cv e i None); auto; rewrite K; cbn [lvl_of]; lia].
  unfold next_end. rewrite (cl_st C). cbn [negb andb].
  apply (Good_teq e); [apply teq_emit_upd; [apply (cl_si C) | apply (cl_lt C)] | apply (Closed_top i e C)].
  rewrite (wf_root e i (cl_si C) (cl_lt C) K). apply parent_root, (cl_si C).
Qed.
(* a child of the running task is started: the task has an open task beneath it *)
Lemma child_good i n c e : At i n SRunning e -> n_kind n <> KAct -> c < length (nodes e) ->
  n_kind (nd e c) = child_kind (n_kind n) -> Good (sched e c i).
Proof.
  intros A Hk Hcl Hck. pose proof (At_kind A) as K. rewrite <- K in *. destruct A as [H P Hi _ Hs _ Hc].
  assert (Ha : SIa (sched e c i)) by (apply SIa_spawn; auto; [apply H | rewrite Hs; discriminate]).
  pose proof (parent_spawn_child VOther e c i Ha Hi Hk Hck) as Hnew.
  split; [apply SI_spawn; auto; rewrite Hnew; intros par E; inversion E; subst par; split; [exact Hs | now apply (nochild_nil e i H)]|].
  apply (PX_weaken _ _ _ (PX_spawn VOther _ e c i H P)). intros t -> _ _. right. now apply spawn_clause.
Qed.

Lemma run_next_good f f' cv i n e : At i n SReady e -> (n_kind n = KWorkflow \/ n_kind n = KStep) ->
  Good (next (S (S (S (S f)))) cv (emit (S f') (kind_run (set_state 7 e i SRunning) i) i) i).
Proof.
  intros A Hk.
  apply (At_open 7 _ _ SReady SRunning) in A; auto; try discriminate.
  set (er := set_state 7 e i SRunning) in *. clearbody er. clear e.
  pose proof (At_kind A) as Kr. unfold kind_run, normal_children, children_in. rewrite Kr, (at_node A).
  destruct (fk_children _ _ (At_ok A)) as [E | (c & E & Hcl & Hck)]; rewrite E; cbn [filter map fst snd okind_beq].
  - destruct Hk as [Hk | Hk]; rewrite Hk in *.
    + (* a workflow without steps is completed at once *)
      pose proof (At_close 8 i n SRunning SCompleted er A eq_refl eq_refl eq_refl ltac:(discriminate)) as C2.
      pose proof (teq_emit_SI f' _ i (cl_si C2) (cl_lt C2)) as T2.
      apply next_root_done; [now apply (Closed_teq i _ _ T2) | now rewrite (teq_kind _ _ i T2), kind_ss].
    + (* a step without acts *)
      apply (next_done _ _ _ n); [now apply At_emit | now left].
  - (* the one child is started *)
    replace (match n_kind n with KWorkflow => _ | _ => _ end) with (sched er c i) by (destruct Hk as [-> | ->]; reflexivity).
    assert (G2 : Good (sched er c i)) by (apply (child_good i n); auto; destruct Hk as [-> | ->]; discriminate).
    assert (Hi2 : i < ntasks (sched er c i)) by (unfold sched; rewrite ntasks_sched_v; pose proof (at_lt A); lia).
    assert (C2 : children (sched er c i) i = [ntasks er]) by (unfold sched; now rewrite children_spawn, Nat.eqb_refl, (at_nc A)).
    pose proof (teq_emit_SI f' _ i (proj1 G2) Hi2) as T2.
    rewrite (next_over _ _ _ i (ntasks er)).
    + exact (Good_teq _ _ T2 G2).
    + rewrite (teq_kind _ _ i T2). unfold sched. rewrite kind_spawn_old, Kr by apply (at_lt A). exact Hk.
    + rewrite (teq_st _ _ i T2). unfold sched. rewrite st_spawn_old by apply (at_lt A). apply (at_st A).
    + now rewrite (teq_children _ _ i T2).
    + rewrite (teq_st _ _ _ T2). apply st_spawn_new.
Qed.

Lemma exec_good cv e i : SI e -> PX (fun t => t = i) e -> i < ntasks e -> st e i = SNone -> ~ In i (queue e) ->
  Good (exec (fuel_of e) cv e i).
Proof.
  intros H P Hi Hs Hq. destruct (fuel_ge e) as [f ->].
  assert (A : At i (tnode e i) SNone e) by (constructor; auto; now apply no_children).
  apply (At_init (S (S (S f)))) in A. rewrite (exec_fresh _ _ _ _ Hs).
  set (e1 := exec_init _ e i) in *. clearbody e1. revert A. generalize (tnode e i). intros n A.
  pose proof (At_ok A) as F. pose proof (sia_exn e1 (at_si A)) as Hx. pose proof (at_st A) as S1. pose proof (At_kind A) as K1.
  unfold started in A, S1. destruct (n_kind n) eqn:Ek.
  - rewrite exec_rest_ready; auto. apply (run_next_good f _ _ i n); auto.
  - now elim (fk_kind _ _ F).
  - rewrite exec_rest_ready; auto. apply (run_next_good f _ _ i n); auto.
  - destruct (fk_act _ _ F Ek) as [[Fu | Fu] [Fch Fis]]; rewrite Fu in A, S1.
    + (* an interactive act waits for a client *)
      rewrite exec_rest_irq, next_irq; auto. split; [apply A|]. apply (PX_weaken _ _ _ (at_px A)). intros t -> _ _. right. right; left. exact S1.
    + (* a message act: running, its message, completed *)
      rewrite exec_rest_msg; auto; [|now rewrite (at_node A) ..].
      apply (At_open 7 _ _ SReady SRunning) in A; auto; try discriminate.
      apply (At_teq _ _ _ _ _ (teq_set_silent _ i false)), (At_emit (S (S (S f)))) in A.
      apply (next_done _ _ _ n); [exact A | right; exact Ek].
Qed.


Lemma Good_queue e q' : Good e -> Permutation (queue e) q' -> Good (with_queue e q').
Proof.
  intros [H P] Hp. split.
  - apply SI_queue; [exact H | intros t; apply Permutation_in, Permutation_sym, Hp | apply (Permutation_NoDup Hp), (sia_queue e H)].
  - apply (PX_queue none); [exact P | auto | intros t Ht; right; exact (Permutation_in t Hp Ht)].
Qed.
Lemma step_good e : Good e -> Good (step_queue e).
Proof.
  intros G. unfold step_queue. destruct (queue e) as [|i q] eqn:Eq; [exact G|]. destruct G as [H P].
  set (e0 := add_ev (with_queue e q) (EPop i)).
  assert (H0 : SI e0) by (eapply SI_pop; eauto).
  assert (P0 : PX (fun t => none t \/ t = i) e0) by (eapply PX_pop; eauto).
  destruct (sia_queue e H) as [Q1 Q2]. rewrite Eq in Q1, Q2. destruct (Q1 i (or_introl eq_refl)) as [Hi Hst].
  assert (S0 : st e0 i = st e i) by reflexivity.
  destruct (is_completed (st e0 i)) eqn:Ec.
  - split; [exact H0|]. apply (PX_weaken _ _ _ P0). intros t [[] | ->] _ Ho. unfold opn in Ho. congruence.
  - rewrite S0 in Ec. destruct Hst as [Hst | Hst]; [|congruence].
    assert (G1 : Good (exec (fuel_of e0) [] e0 i)).
    { apply exec_good; auto.
      - apply (PX_weaken _ _ _ P0). intros t [[] | ->] _ _. now left.
      - change (queue e0) with q. now inversion Q2. }
    unfold exec_or_fail. rewrite (sia_exn _ (proj1 G1)). apply (Good_teq _ _ (teq_persist _)). exact G1.
Qed.
Lemma drain_good n : forall e, Good e -> Good (drain n e).
Proof. induction n as [|n IH]; intros e G; cbn [drain]; [exact G|]. destruct (queue e); [exact G|]. apply IH. now apply step_good. Qed.
Lemma teq_with_clock e c : teq e (with_clock e c). Proof. repeat split; auto. Qed.
Lemma no_timeout_children e t k : SI e -> t < ntasks e -> children_in (tnode e t) (OTimeout k) = [].
Proof. intros H Ht. unfold children_in. destruct (fk_children _ _ (task_ok e t H Ht)) as [-> | (c & -> & _)]; reflexivity. Qed.
(* in this class timeout rules have no steps: a firing starts nothing, a tick is a quiet step *)
Lemma tick_good e adv : Good e -> Good (do_tick e adv).
Proof.
  intros G. apply (Good_teq e); [|exact G]. apply (do_tick_inv (teq e)).
  - apply teq_with_clock.
  - intros ee Te. exact (teq_trans _ _ _ Te (teq_persist _)).
  - intros ee t r Hlt Te _. rewrite (teq_tnode _ _ t Te), (no_timeout_children e t (fst r) (proj1 G) Hlt).
    eapply teq_trans; [exact Te|]. eapply teq_trans; [apply teq_add_ev | apply teq_tmod; reflexivity].
Qed.
Lemma op_good e o : Good e -> frag_op o = true -> Good (apply_op e o).
Proof.
  intros G Ho. destruct o as [k | | i a opts | adv]; cbn [apply_op frag_op] in *; try discriminate; [| | | now apply tick_good].
  - unfold sched_pick. destruct (nth_error (queue e) k) as [i|] eqn:Ek; [|exact G]. apply step_good. apply Good_queue; [exact G | now apply pick_perm].
  - apply (Good_teq _ _ (teq_add_ev _ _)). now apply drain_good.
  - now apply action_good.
Qed.
Lemma start_good ns c0 : frag_nodes ns = true -> Good (start ns c0).
Proof.
  intros F. unfold start.
  set (e := {| nodes := ns; tasks := [new_task 0 None]; rows := [Some (new_task 0 None)]; queue := [0]; trace := []; oof := false; exn := false;
               pstate := SRunning; prow := Some SRunning; clock := c0 |}).
  apply (Good_teq e); [apply teq_add_ev|].
  assert (Hns : 0 < length ns) by (unfold frag_nodes in F; apply andb_true_iff in F as [_ F]; destruct ns; [discriminate | cbn; lia]).
  assert (Htk : forall t, tk e t = if Nat.eqb t 0 then new_task 0 None else dtask) by (intros [|[|t]]; reflexivity).
  assert (Hone : forall t, t < ntasks e -> t = 0) by (intros t; unfold ntasks; cbn; lia).
  assert (Hpar0 : forall j, j < ntasks e -> parent e j = None) by (intros j Hj; now rewrite (Hone j Hj)).
  split.
  - constructor; [| intros j p Hj Hp; rewrite (Hpar0 j Hj) in Hp; discriminate | intros j1 j2 p H1 H2 P1; rewrite (Hpar0 j1 H1) in P1; discriminate].
    constructor; try reflexivity; try exact F.
    + intros t. rewrite Htk. destruct (Nat.eqb t 0); split; reflexivity.
    + intros t Ht. rewrite (Hone t Ht). split; [reflexivity|]. split; [exact Hns|]. split; [discriminate | lia].
    + split; [unfold ntasks; cbn; lia | split; reflexivity].
    + intros t Ht0 Ht. apply Hone in Ht. lia.
    + split; [|repeat constructor; intros []]. intros t [<- | []]. split; [unfold ntasks; cbn; lia | now left].
    + unfold PS. cbn. discriminate.
  - intros t Ht Ho. rewrite (Hone t Ht). right; left. now left.
Qed.
Theorem run_good ns c0 ops : frag_nodes ns = true -> forallb frag_op ops = true -> Good (run ns c0 ops).
Proof.
  intros F Hops. unfold run. assert (G : Good (start ns c0)) by (now apply start_good). revert G Hops. generalize (start ns c0).
  induction ops as [|o ops IH]; intros e G Hops; cbn [fold_left]; [exact G|]. cbn [forallb] in Hops. apply andb_true_iff in Hops as [Ho Hops].
  apply IH; [now apply op_good | exact Hops].
Qed.

Lemma descend e : SI e -> Prog e -> queue e = [] -> forall m t, t < ntasks e -> ntasks e - t <= m -> opn e t ->
  exists u, u < ntasks e /\ st e u = SInterrupt.
Proof.
  intros H P Hq. induction m as [|m IH]; intros t Ht Hm Ho; [lia|].
  destruct (P t Ht Ho) as [[] | [Hc | [Hc | (Hc & j & Hj & Hp & Hjo)]]].
  - rewrite Hq in Hc. destruct Hc.
  - exists t. auto.
  - assert (t < j) by (apply (parent_lt e j t (SIa_W e H) Hj Hp)). apply (IH j); auto. lia.
Qed.
(* at rest and unfinished, some act waits for a client -- whatever timeout rules are registered (which `stuck` would count as
   a way out, so that good_not_stuck says less) *)
Theorem good_waits e : Good e -> queue e = [] -> is_completed (pstate e) = false -> exists u, u < ntasks e /\ st e u = SInterrupt.
Proof.
  intros [H P] Eq Ep.
  assert (Ho : opn e 0).
  { unfold opn. destruct (is_completed (st e 0)) eqn:E0; [|reflexivity]. pose proof (sia_ps e H E0). congruence. }
  destruct (sia_root e H) as (Hn & _).
  exact (descend e H P Eq (ntasks e) 0 Hn ltac:(lia) Ho).
Qed.
Theorem good_not_stuck e : Good e -> stuck e = false.
Proof.
  intros G. unfold stuck. destruct (queue e) as [|x q] eqn:Eq; [|reflexivity]. cbn [andb].
  destruct (negb (oof e)); [|reflexivity]. destruct (is_completed (pstate e)) eqn:Ep; [reflexivity|]. cbn [negb andb].
  destruct (good_waits e G Eq Ep) as (u & Hu & Hsu).
  apply not_true_is_false. intros Hall. rewrite forallb_forall in Hall.
  specialize (Hall u ltac:(unfold all_tasks; apply in_seq; unfold ntasks in Hu; lia)). rewrite Hsu in Hall. discriminate.
Qed.
Theorem sequential_interactive_never_stuck ns c0 ops :
  frag_nodes ns = true -> forallb frag_op ops = true -> stuck (run ns c0 ops) = false.
Proof. intros F Hops. apply good_not_stuck. now apply run_good. Qed.

(* the class is not empty, and its runs are not trivial *)
(* two steps, the first with an interactive act, a message act and an interactive act with outputs, the second with one act *)
Definition w_seq := wf [Tree.Step 1 None None [] [] [] [] [Tree.Act 2 None irq [] [] None [] [] []; Tree.Act 6 None (ASpec UMsg 0 true None []) [] [] None [] [] []; Tree.Act 3 None irq [] [(5, VNull)] None [] [] []] [] [];
                        Tree.Step 4 None None [] [] [] [] [Tree.Act 5 None irq [] [] None [] [] []] [] []].
Lemma w_seq_in_class : option_map frag_nodes (Tree.build_tree 30 w_seq) = Some true.
Proof. vm_compute. reflexivity. Qed.
Definition ops_seq := [OAct 2 ANext []; ODrain; OAct 4 ASubmit [(5, VNum 7)]; OSched 0; OAct 6 ASkip []; ODrain].
Lemma ops_seq_in_class : forallb frag_op ops_seq = true. Proof. reflexivity. Qed.
Lemma w_seq_runs :
  option_map (fun e => (queue e, pstate e, st e 2)) (go w_seq []) = Some ([], SRunning, SInterrupt) /\
  option_map (fun e => (queue e, pstate e, map (fun t => st e t) (all_tasks e))) (go w_seq ops_seq)
    = Some ([], SCompleted, [SCompleted; SCompleted; SCompleted; SCompleted; SSubmitted; SCompleted; SSkipped]).
Proof. split; vm_compute; reflexivity. Qed.
Theorem go_never_stuck w ops : option_map frag_nodes (Tree.build_tree 30 w) = Some true -> forallb frag_op ops = true ->
  option_map stuck (go w ops) = Some false.
Proof.
  intros F Hops. unfold go. destruct (Tree.build_tree 30 w) as [t|]; [|discriminate]. cbn [option_map] in *. inversion F as [F'].
  f_equal. apply sequential_interactive_never_stuck; [exact F' | cbn [forallb frag_op andb]; exact Hops].
Qed.

(* C03 on the class: hierarchical completion *)
Theorem good_hierarchy e : SI e ->
  open_under_completed e = false /\ (is_completed (st e 0) = true -> forall j, j < ntasks e -> is_completed (st e j) = true).
Proof.
  intros H. split.
  - unfold open_under_completed. apply not_true_is_false. intros Hex. apply existsb_exists in Hex as (c & Hc & Hb).
    apply andb_true_iff in Hb as [Ho Hp]. apply negb_true_iff in Ho. apply in_seq in Hc.
    destruct (parent e c) as [p|] eqn:Ep; [|discriminate].
    rewrite (si_up e H c p ltac:(unfold ntasks; lia) Ep Ho) in Hp. discriminate.
  - intros H0 j. induction j as [j IH] using lt_wf_ind. intros Hj.
    destruct j as [|j]; [exact H0|]. destruct (is_completed (st e (S j))) eqn:Eo; [reflexivity|]. exfalso.
    destruct (has_parent e H (S j) ltac:(lia) Hj) as (p & Hp).
    pose proof (parent_lt e (S j) p (SIa_W e H) Hj Hp) as Hlt.
    pose proof (si_up e H (S j) p Hj Hp Eo) as Hr. pose proof (IH p Hlt ltac:(lia)) as Hcp. rewrite Hr in Hcp. discriminate.
Qed.
Theorem sequential_interactive_hierarchy ns c0 ops : frag_nodes ns = true -> forallb frag_op ops = true ->
  let e := run ns c0 ops in
  open_under_completed e = false /\ (is_completed (st e 0) = true -> forall j, j < ntasks e -> is_completed (st e j) = true).
Proof. intros F Hops e. apply good_hierarchy. apply (run_good ns c0 ops F Hops). Qed.

(* the fuel of the model is never exhausted on the class, and no operation ends in the scheduler's error path *)
Theorem class_runs_total ns c0 ops : frag_nodes ns = true -> forallb frag_op ops = true ->
  oof (run ns c0 ops) = false /\ exn (run ns c0 ops) = false.
Proof. intros F Hops. destruct (run_good ns c0 ops F Hops) as [H _]. split; [apply (sia_oof _ H) | apply (sia_exn _ H)]. Qed.

Lemma w_seq_abort : option_map (fun e => (queue e, pstate e, map (fun t => st e t) (all_tasks e), forallb frag_op [OAct 2 AAbort []; ODrain]))
                               (go w_seq [OAct 2 AAbort []; ODrain])
  = Some ([], SAborted, [SAborted; SAborted; SAborted], true).
Proof. vm_compute. reflexivity. Qed.
