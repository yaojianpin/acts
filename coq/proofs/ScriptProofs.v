(* model/Script.v, C14: a value passed to the script engine and read back is the same value, and the template scanner
   finds exactly the {{...}} of a string.  The float type F and its conversions are parameters; all that is assumed of
   them is `exact_of_Z`. *)
From Coq Require Import List ZArith Lia.
Import ListNotations.
From Acts.Model Require Import Script.

Section Proofs.
Variable F : Type.
Variable of_Z : Z -> F.
Variable exact_Z : F -> option Z.        (* the integer an integral double of magnitude <= 2^53 denotes *)
(* IEEE 754 binary64: every integer of magnitude up to 2^53 is exactly representable *)
Hypothesis exact_of_Z : forall z, (Z.abs z <= 2 ^ 53)%Z -> exact_Z (of_Z z) = Some z.

Notation jv := (jv F).

Section Ind.
Variable P : jv -> Prop.
Hypothesis Hnull : P (JNull F).
Hypothesis Hbool : forall b, P (JBool F b).
Hypothesis Hint : forall z, P (JInt F z).
Hypothesis Hfloat : forall f, P (JFloat F f).
Hypothesis Hstr : forall s, P (JStr F s).
Hypothesis Harr : forall l, Forall P l -> P (JArr F l).
Hypothesis Hobj : forall l, Forall (fun kv => P (snd kv)) l -> P (JObj F l).
Fixpoint jv_ind' (v : jv) : P v :=
  match v with
  | JNull _ => Hnull
  | JBool _ b => Hbool b
  | JInt _ z => Hint z
  | JFloat _ f => Hfloat f
  | JStr _ s => Hstr s
  | JArr _ l => Harr l ((fix go (l : list jv) : Forall P l :=
                          match l with [] => Forall_nil _ | x :: r => Forall_cons _ (jv_ind' x) (go r) end) l)
  | JObj _ l => Hobj l ((fix go (l : list (bytes * jv)) : Forall (fun kv => P (snd kv)) l :=
                          match l with [] => Forall_nil _ | x :: r => Forall_cons _ (jv_ind' (snd x)) (go r) end) l)
  end.
End Ind.

Fixpoint ints (p : Z -> bool) (v : jv) : bool :=
  match v with
  | JInt _ z => p z
  | JArr _ l => forallb (ints p) l
  | JObj _ l => forallb (fun kv => ints p (snd kv)) l
  | _ => true
  end.

Definition exact53 (z : Z) : bool := Z.leb (Z.abs z) (2 ^ 53).
(* of_js reads an integral float as the integer it denotes, so only the other floats come back literally *)
Fixpoint floats_proper (v : jv) : bool :=
  match v with
  | JFloat _ f => match exact_Z f with Some _ => false | None => true end
  | JArr _ l => forallb floats_proper l
  | JObj _ l => forallb (fun kv => floats_proper (snd kv)) l
  | _ => true
  end.

Theorem roundtrip_exact (v : jv) :
  ints exact53 v = true -> floats_proper v = true -> of_js F exact_Z (to_js F of_Z v) = v.
Proof.
  induction v as [| b | z | f | s | l IH | l IH] using jv_ind'; simpl; intros H Hf; auto.
  - destruct (fits_i32 z); simpl; auto. rewrite exact_of_Z; auto. now apply Z.leb_le.
  - destruct (exact_Z f); [discriminate | reflexivity].
  - f_equal. rewrite map_map. rewrite <- (map_id l) at 2. apply map_ext_in. intros x Hx.
    rewrite Forall_forall in IH. rewrite forallb_forall in H, Hf. apply IH; auto.
  - f_equal. rewrite map_map. rewrite <- (map_id l) at 2. apply map_ext_in. intros [k x] Hx. simpl.
    rewrite Forall_forall in IH. rewrite forallb_forall in H, Hf. f_equal.
    apply (IH (k, x)); [exact Hx | exact (H (k, x) Hx) | exact (Hf (k, x) Hx)].
Qed.

Lemma Forall2_map_self {A} (R : A -> A -> Prop) (f : A -> A) l : (forall x, In x l -> R (f x) x) -> Forall2 R (map f l) l.
Proof. induction l as [|x l IH]; intros H; simpl; constructor; [apply H; now left | apply IH; intros; apply H; now right]. Qed.

(* same value: an integral float and the integer it denotes are the same number *)
Inductive veq : jv -> jv -> Prop :=
| veq_null : veq (JNull F) (JNull F)
| veq_bool b : veq (JBool F b) (JBool F b)
| veq_int z : veq (JInt F z) (JInt F z)
| veq_float f : veq (JFloat F f) (JFloat F f)
| veq_if z f : exact_Z f = Some z -> veq (JInt F z) (JFloat F f)
| veq_str s : veq (JStr F s) (JStr F s)
| veq_arr a b : Forall2 veq a b -> veq (JArr F a) (JArr F b)
| veq_obj a b : Forall2 (fun x y => fst x = fst y /\ veq (snd x) (snd y)) a b -> veq (JObj F a) (JObj F b).

Theorem roundtrip (v : jv) : ints exact53 v = true -> veq (of_js F exact_Z (to_js F of_Z v)) v.
Proof.
  induction v as [| b | z | f | s | l IH | l IH] using jv_ind'; simpl; intros H.
  - constructor.
  - constructor.
  - destruct (fits_i32 z); simpl; [constructor|]. rewrite exact_of_Z; [constructor | now apply Z.leb_le].
  - destruct (exact_Z f) eqn:E; [now apply veq_if | constructor].
  - constructor.
  - constructor. rewrite map_map. rewrite forallb_forall in H. rewrite Forall_forall in IH.
    apply Forall2_map_self. intros x Hx. apply IH; auto.
  - constructor. rewrite map_map. rewrite forallb_forall in H. rewrite Forall_forall in IH.
    apply (Forall2_map_self (fun x y => fst x = fst y /\ veq (snd x) (snd y))). intros x Hx. split; [reflexivity|]. simpl. apply (IH x); auto.
Qed.

Variable eval : bytes -> jv.
Variable show : jv -> bytes.

Definition plain (s : bytes) : Prop := forall x, In x s -> x <> LB.
Definition simple (s : bytes) : Prop := forall x, In x s -> x <> RB /\ x <> NL.

Lemma scan_nonopen a s fuel : a <> LB -> scan (S fuel) (a :: s) = scan fuel s.
Proof. intros H%Nat.eqb_neq. cbn [scan]. destruct s; [now destruct fuel | now rewrite H]. Qed.
Lemma scan_plain fuel s : plain s -> scan fuel s = [].
Proof.
  revert s; induction fuel as [|fuel IH]; intros [|a s] Hp; try reflexivity.
  rewrite scan_nonopen by (apply Hp; now left). apply IH. intros x Hx. apply Hp. now right.
Qed.
Theorem verbatim s : plain s -> fill_string F eval show s = JStr F s.
Proof. intros Hp. unfold fill_string, get_exprs. now rewrite scan_plain. Qed.

Lemma close_step a s acc : a <> NL -> a <> RB -> close (a :: s) acc = close s (a :: acc).
Proof. intros Hn%Nat.eqb_neq Hr%Nat.eqb_neq. cbn [close]. rewrite Hn. destruct s; [reflexivity | now rewrite Hr]. Qed.
Lemma close_simple inner rest acc : simple inner ->
  close (inner ++ RB :: RB :: rest) acc = Some (rev acc ++ inner, rest).
Proof.
  revert acc; induction inner as [|a inner IH]; intros acc Hs.
  - cbn. now rewrite app_nil_r.
  - destruct (Hs a (or_introl eq_refl)) as [Hr Hn]. cbn [app]. rewrite close_step by assumption.
    rewrite IH by (intros x Hx; apply Hs; now right). cbn [rev]. now rewrite <- app_assoc.
Qed.

Definition tmpl (inner : bytes) : bytes := LB :: LB :: inner ++ [RB; RB].

(* p0 {{e1}} p1 {{e2}} ... pn *)
Fixpoint assemble (p0 : bytes) (parts : list (bytes * bytes)) : bytes :=
  match parts with
  | [] => p0
  | (e, p) :: r => p0 ++ tmpl e ++ assemble p r
  end.
Lemma scan_template e rest fuel : simple e -> scan (S fuel) (tmpl e ++ rest) = tmpl e :: scan fuel rest.
Proof.
  intros Hs. unfold tmpl. cbn [app scan]. rewrite !Nat.eqb_refl. cbn [andb].
  rewrite <- app_assoc. cbn [app]. rewrite close_simple by assumption. reflexivity.
Qed.
Theorem scan_assemble parts : forall p0 fuel, plain p0 ->
  (forall ep, In ep parts -> simple (fst ep) /\ plain (snd ep)) -> length (assemble p0 parts) < fuel ->
  scan fuel (assemble p0 parts) = map (fun ep => tmpl (fst ep)) parts.
Proof.
  induction parts as [|[e p] r IH]; intros p0 fuel Hp0 Hparts Hlen; cbn [assemble map]; cbn [assemble] in Hlen.
  - now apply scan_plain.
  - destruct (Hparts (e, p) (or_introl eq_refl)) as [He Hp]. cbn [fst snd] in *.
    (* skip the plain prefix *)
    revert fuel Hlen. induction p0 as [|a p0 IHp]; intros fuel Hlen.
    + cbn [app] in *. destruct fuel as [|fuel]; [cbn in Hlen; lia|].
      rewrite scan_template by assumption. cbn [fst]. f_equal.
      apply IH; auto; [intros ep Hep; apply Hparts; now right|]. rewrite app_length in Hlen. unfold tmpl in Hlen. cbn [length] in Hlen. lia.
    + cbn [app length] in *. destruct fuel as [|fuel]; [lia|]. rewrite scan_nonopen by (apply Hp0; now left).
      apply IHp; [intros x Hx; apply Hp0; now right | lia].
Qed.

Theorem single_template_typed e : simple e -> fill_string F eval show (tmpl e) = eval (tmpl e).
Proof.
  intros He. unfold fill_string, get_exprs.
  assert (Hs : scan (S (length (tmpl e))) (tmpl e) = [tmpl e]).
  { rewrite <- (app_nil_r (tmpl e)) at 2. rewrite scan_template by assumption. now destruct (length (tmpl e)). }
  rewrite Hs. cbn [hd].
  assert (Hst : forall s : bytes, starts_with s s = Some []).
  { induction s as [|a s IHs]; cbn; auto. now rewrite Nat.eqb_refl. }
  rewrite Hst. cbn [Nat.eqb andb]. rewrite Nat.eqb_refl. cbn [andb].
  rewrite firstn_all.
  assert (Hb : forall s : bytes, beqb s s = true) by (induction s as [|a s IHs]; cbn; auto; now rewrite Nat.eqb_refl).
  now rewrite Hb.
Qed.
Theorem every_template parts p0 : plain p0 -> (forall ep, In ep parts -> simple (fst ep) /\ plain (snd ep)) ->
  get_exprs (assemble p0 parts) = map (fun ep => tmpl (fst ep)) parts.
Proof. intros H0 Hp. unfold get_exprs. apply scan_assemble; auto. Qed.
End Proofs.
