(* C11 / C12: at every operation boundary the store image (task rows, process row) equals the live
   process; reloading the tasks from the rows gives back the live tasks. *)
From Coq Require Import List.
Import ListNotations.
From Acts.Gen Require Import GenState.
From Acts.Model Require Import Engine.
From Acts.Proofs Require Import ListFacts C05Proofs.

Definition image_ok (e : eng) : Prop := rows e = map Some (tasks e) /\ prow e = Some (pstate e).
(* Store::load_proc + load_tasks: the live picture rebuilt from the rows *)
Definition reload (e : eng) : eng :=
  with_pstate (with_tasks e (map (fun r => match r with Some t => t | None => dtask end) (rows e)))
              (match prow e with Some s => s | None => SNone end).

Lemma image_persist e : image_ok (persist e).
Proof. split; reflexivity. Qed.
Lemma image_add_ev e x : image_ok e -> image_ok (add_ev e x).
Proof. intros H; exact H. Qed.
Lemma image_with_queue e q : image_ok e -> image_ok (with_queue e q).
Proof. intros H; exact H. Qed.
Lemma image_with_clock e c : image_ok e -> image_ok (with_clock e c).
Proof. intros H; exact H. Qed.
Lemma image_ret_err e : image_ok e -> image_ok (ret_err e).
Proof. intros H; exact H. Qed.
Lemma image_ret_ok e : image_ok (ret_ok e).
Proof. unfold ret_ok. apply image_add_ev, image_persist. Qed.

Lemma image_step_queue e : image_ok e -> image_ok (step_queue e).
Proof.
  intros H. unfold step_queue. destruct (queue e) as [|i q]; [exact H|]. cbv zeta.
  destruct (is_completed _); [exact H | apply image_persist].
Qed.
Lemma image_sched_pick e k : image_ok e -> image_ok (sched_pick e k).
Proof. intros H. unfold sched_pick. destruct (nth_error (queue e) k); [apply image_step_queue; exact H | exact H]. Qed.
Lemma image_drain n : forall e, image_ok e -> image_ok (drain n e).
Proof.
  induction n as [|n IH]; intros e H; cbn [drain]; [exact H|].
  destruct (queue e); [exact H|]. apply IH, image_step_queue, H.
Qed.
Lemma image_do_tick e adv : image_ok e -> image_ok (do_tick e adv).
Proof. intros H. unfold do_tick. cbv zeta. destruct (is _ SRunning); [apply image_persist | exact H]. Qed.

Lemma image_perform e i a cv : image_ok e -> image_ok (perform e i a cv).
Proof.
  intros H. destruct (perform_ends e i a cv) as [-> | [(e' & ->) | (_ & e' & ->)]].
  - apply image_ret_err, H.
  - apply image_ret_ok.
  - apply image_ret_err, image_persist.
Qed.
Lemma image_do_action e i a opts : image_ok e -> image_ok (do_action e i a opts).
Proof.
  intros H. unfold do_action. destruct (admission e i a opts) as [[cv a']|]; [apply image_perform, H | apply image_ret_err, H].
Qed.
Lemma image_apply_op e o : image_ok e -> image_ok (apply_op e o).
Proof.
  intros H. destruct o; cbn [apply_op].
  - now apply image_sched_pick.
  - apply image_add_ev. now apply image_drain.
  - now apply image_do_action.
  - now apply image_do_tick.
Qed.
Lemma ops_image ops e : image_ok e -> image_ok (fold_left apply_op ops e).
Proof. apply fold_left_inv. intros a o. apply image_apply_op. Qed.
(* C11: after every operation of every run the store holds the image of every live task (state,
   predecessor, data, error, times, hooks, markers) and of the process state *)
Theorem run_image ns c0 ops : image_ok (run ns c0 ops).
Proof. apply ops_image. split; reflexivity. Qed.
(* C12 (task part): what a reload reads back from an image is the live picture *)
Theorem reload_image e : image_ok e -> tasks (reload e) = tasks e /\ pstate (reload e) = pstate e.
Proof.
  intros [H1 H2]. unfold reload. cbn [tasks pstate with_tasks with_pstate]. rewrite H1, H2. split; [|reflexivity].
  rewrite map_map. apply map_id.
Qed.
Corollary run_reload ns c0 ops : tasks (reload (run ns c0 ops)) = tasks (run ns c0 ops) /\ pstate (reload (run ns c0 ops)) = pstate (run ns c0 ops).
Proof. apply reload_image, run_image. Qed.
Lemma persist_id e : image_ok e -> persist e = e.
Proof. intros [H1 H2]. destruct e; cbn in *. unfold persist, with_prow, with_rows; cbn. now rewrite <- H1, <- H2. Qed.
