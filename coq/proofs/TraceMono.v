(* `pre`: the trace is only appended to.  C02Core.mono: emit / emit_error / next / review only append, in any engine state;
   for whole operations `pre` is a part of C02Core.steps. *)
From Coq Require Import List.
Import ListNotations.

From Acts.Model Require Import Engine.
From Acts.Proofs Require Import EngineBasics.

Definition pre (e e' : eng) : Prop := exists l, trace e' = trace e ++ l.
Lemma pre_refl e : pre e e. Proof. exists []. now rewrite app_nil_r. Qed.
Lemma pre_trans a b c : pre a b -> pre b c -> pre a c.
Proof. intros [l1 H1] [l2 H2]. exists (l1 ++ l2). now rewrite H2, H1, app_assoc. Qed.
Lemma pre_eq e e' : trace e' = trace e -> pre e e'. Proof. intros H. exists []. now rewrite app_nil_r. Qed.
Lemma pre_ext e e' : ext e e' -> pre e e'. Proof. intros (_ & (l & Tl & _) & _). now exists l. Qed.
Lemma pre_add_ev e x : pre e (add_ev e x). Proof. now exists [x]. Qed.
Lemma pre_set_state site e i s : pre e (set_state site e i s).
Proof.
  destruct (set_state_cases site e i s) as [-> | [_ E]]; [apply pre_refl | eexists; exact E].
Qed.
Lemma pre_tmod e i f : pre e (tmod e i f). Proof. now apply pre_eq. Qed.
Lemma pre_set_err site e i c : pre e (set_err site e i c).
Proof. unfold set_err. eapply pre_trans; [apply (pre_tmod e i) | apply pre_set_state]. Qed.
Lemma pre_sched_v v e n p : pre e (sched_v v e n p). Proof. unfold sched_v. eexists. reflexivity. Qed.
Lemma pre_sched e n p : pre e (sched e n p). Proof. apply pre_sched_v. Qed.
Lemma pre_sched_next e n p : pre e (sched_next e n p). Proof. apply pre_sched_v. Qed.
