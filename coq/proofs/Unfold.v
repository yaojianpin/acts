(* The engine's big functions, opened once, as equations: emit as a composition of phases, exec as a composition of stages,
   next and review as the part of the task's kind followed by an end common to all kinds, with what those parts are on the
   tasks the proofs meet; one unfolding step of emit_error / abort_up with every `let` opened; the abort arm of perform.
   Proofs rewrite with these and reason about one phase at a time: `unfold` / `cbn` / `simpl` on the functions themselves
   expands every `let` of their bodies.
   Each proof computes the left side the way the statement was computed and compares syntactically: a bare `reflexivity`
   has the unifier find the same conversion first, at twice the cost. *)
From Coq Require Import List Bool.
Import ListNotations.
From Acts.Gen Require Import GenState.
From Acts.Model Require Import Engine.

(* The right side, computed by cbn, is the body of the function with `f` in the recursive calls and every `let` opened;
   `Check emit_error_S.` prints it.  So for abort_up_S. *)
Lemma emit_error_S f e i :
  emit_error (S f) e i = ltac:(let t := eval cbn [emit_error] in (emit_error (S f) e i) in exact t).
Proof. cbn [emit_error]. reflexivity. Qed.
Lemma abort_up_S f e t :
  abort_up (S f) e (Some t) = ltac:(let x := eval cbn [abort_up] in (abort_up (S f) e (Some t)) in exact x).
Proof. cbn [abort_up]. reflexivity. Qed.

(* the local `scan` of review (step.rs review: the first pending child that is ready is resumed), under a name:
   unfolding `review_head` shows it as an anonymous fix, which `fold (step_scan f cv)` names *)
Definition step_scan f cv : list nat -> eng -> option eng * eng :=
  fix scan (l : list nat) (ee : eng) : option eng * eng :=
    match l with
    | [] => (None, ee)
    | j :: l' =>
        if is (st ee j) SPending then
          let '(rdy, ee1) := is_ready ee j in
          if rdy then (Some (next f cv (emit f (set_state 13 ee1 j SRunning) j) j), ee1) else scan l' ee1
        else scan l' ee
    end.

(* A `let` is opened with its value held as a variable, so that what follows is compared once and not once per use
   of the variable. *)
Lemma let_eq {A B} (a : A) (F : A -> B) (r : A -> B) : (forall x, x = a -> F x = r x) -> (let x := a in F x) = r a.
Proof. intros H. exact (H a eq_refl). Qed.
Ltac open_let x E :=
  lazymatch goal with |- (let y := ?a in @?F y) = ?r => refine (let_eq a F (fun _ => r) _); intros x E; cbv beta end.

Definition emit_head e i : eng :=
  upsert (match kind e i with
          | KWorkflow => if is_created (st e i) then add_ev e (EProc (pstate e) (outputs e i)) else e
          | _ => e end) i.
(* the hooks an act's lifecycle event runs beside its own: those of the enclosing step, then those of the root *)
Definition act_hooks e i (ev : levt) : eng :=
  run_stmt_hooks (match climb_step e i with Some sp => run_stmt_hooks e sp ev i | None => e end) 0 ev i.
Definition created_hooks (k : nkind) e1 i : eng :=
  let ea := run_stmt_hooks e1 i LCreated i in
  if nkind_beq k KAct then act_hooks ea i LBeforeUpdate else ea.
Definition completed_hooks (k : nkind) e1 i : eng :=
  let ea := run_stmt_hooks e1 i LCompleted i in
  if nkind_beq k KAct then act_hooks ea i LUpdated
  else if nkind_beq k KStep then run_stmt_hooks (run_stmt_hooks ea i LStep i) 0 LStep i
  else ea.
(* one registered catch looked at (hook.rs ErrorCatch) *)
Definition catch_step f i (ee : eng) (c : option nat) : eng :=
  match t_err (tk ee i) with
  | None => ee
  | Some code =>
      if t_catch_done (tk ee i) then ee
      else if match c with None => true | Some x => Nat.eqb x code end then
        let ee1 := set_state 19 (set_catch_done ee i) i SRunning in
        match children_in (tnode ee1 i) (OCatch c) with
        | [] => review f [] i ee1 i
        | ch => sched_nodes ee1 ch i
        end
      else ee
  end.
Definition emit_mid f (k : nkind) e1 i : eng :=
  if t_evproc (tk e1 i) then e1
  else if is_created (st e1 i) then created_hooks k e1 i
  else if is_completed (st e1 i) && negb (is (st e1 i) SError) then completed_hooks k e1 i
  else if is (st e1 i) SError then fold_left (catch_step f i) (t_catches (tk e1 i)) e1
  else e1.
Definition emit_msg e2 i : eng := if msg_allowed e2 i then add_ev e2 (EMsg i (st e2 i) (inputs e2 i) (outputs e2 i)) else e2.
Definition emit_tail (k : nkind) e3 i : eng :=
  match k with
  | KWorkflow => if is_completed (st e3 i) then add_ev (with_pstate e3 (st e3 i)) (EProc (st e3 i) (outputs e3 i)) else e3
  | _ => e3
  end.
Lemma emit_S f e i : emit (S f) e i = emit_tail (kind e i) (emit_msg (emit_mid f (kind e i) (emit_head e i) i) i) i.
Proof.
  (* The model's text with its lets kept.  This is the one conversion against `emit`: with the lets expanded about fifty
     paths lead to the recursive call in the catch fold, and on each the unfolded fixpoint is compared with `review`. *)
  cbn beta iota fix delta [emit]. open_let s0 E0; subst s0. open_let k Ek; subst k. open_let e1 E1; subst e1.
  open_let e2 E2. open_let e3 E3. open_let e4 E4.
  (* the phases on the right become the same variables: `change` opens emit_head to the value E2 holds, `rewrite <- E2` names it *)
  change (emit_head e i) with ltac:(match type of E2 with _ = ?r => exact r end). rewrite <- E2.
  change (emit_mid f (kind e i) e2 i) with ltac:(match type of E3 with _ = ?r => exact r end). rewrite <- E3.
  change (emit_msg e3 i) with ltac:(match type of E4 with _ = ?r => exact r end). rewrite <- E4. reflexivity.
Qed.

Definition exec_init f e i : eng :=
  let ea := kind_init (set_state 1 (set_data e i (inputs e i)) i SReady) i in
  if exn ea then ea else if negb (is_completed (st ea i)) then emit f ea i else ea.
Definition exec_wake f e1 i : eng :=
  if is (st e1 i) SPending then let '(rdy, ea) := is_ready e1 i in if rdy then emit f (set_state 6 ea i SRunning) i else ea
  else e1.
Definition exec_fails e1 i : bool := nkind_beq (kind e1 i) KAct && is (st e1 i) SReady && is_fail (sp_u (n_spec (tnode e1 i))).
(* act.rs run *)
Definition act_run er i : eng :=
  let sp := n_spec (tnode er i) in
  let nid := t_nid (tk er i) in
  let blk := ASpec UBlock 0 true None (sp_acts sp) in
  let er0 := match sp_u sp with UMsg => set_silent er i false | _ => er end in
  let er0 := if n_isset (tnode er0 i) then
               let ps := n_params (tnode er0 i) in
               update_data (set_exposed er0 i (map fst (filter (fun kv => negb (is_private_key (fst kv))) ps))) i ps
             else er0 in
  let er1 := match sp_u sp with
             | UBlock => if n_isset (tnode er0 i) then er0 else build_acts er0 nid (sp_acts sp) (sp_sq sp)
             | UParallel => build_acts er0 nid (repeat blk (sp_n sp)) false
             | USequence => build_acts er0 nid (repeat blk (sp_n sp)) true
             | _ => er0 end in
  sched_nodes er1 (normal_children (tnode er1 i)) i.
(* the kind's own run (workflow.rs / step.rs / act.rs / branch.rs) *)
Definition kind_run er i : eng :=
  match kind er i with
  | KWorkflow => match normal_children (tnode er i) with [] => set_state 8 er i SCompleted | ch => sched_nodes er ch i end
  | KStep => sched_nodes er (normal_children (tnode er i)) i
  | KAct => act_run er i
  | KBranch => er
  end.
Definition exec_go f cv e1 i : eng :=
  if exec_fails e1 i then with_exn (set_state 7 e1 i SRunning) true
  else next f cv (if is (st e1 i) SReady then emit f (kind_run (set_state 7 e1 i SRunning) i) i else e1) i.
Definition exec_rest f cv e1 i : eng := if exn e1 then e1 else exec_go f cv (exec_wake f e1 i) i.
Lemma exec_stages f cv e i :
  exec f cv e i = if is_completed (st e i) then with_exn e true
                  else exec_rest f cv (if is (st e i) SNone then exec_init f e i else e) i.
Proof.
  (* open_let is for a right side that does not mention the value of the let; here it does, as the argument of exec_rest, exec_go
     and next, and in folded form (exec_init ...), so let_eq is given that function *)
  cbv beta delta [exec]. destruct (is_completed (st e i)); [reflexivity|].
  lazymatch goal with |- (let x := ?a in @?F x) = _ => apply (let_eq a F (fun x => exec_rest f cv x i)) end. intros e1 _.
  cbv beta delta [exec_rest]. destruct (exn e1); [reflexivity|].
  lazymatch goal with |- (let x := ?a in @?F x) = _ => apply (let_eq a F (fun x => exec_go f cv x i)) end. intros e1' _.
  cbv beta delta [exec_go exec_fails]. destruct (_ && _); [reflexivity|].
  lazymatch goal with |- (let x := ?a in @?F x) = _ => apply (let_eq a F (fun x => next f cv x i)) end. intros e2 _. reflexivity.
Qed.

(* How a running step or act ends, in next and in review.  b1 is the flag returned when a successor is started, b2 the one
   returned when there is none. *)
Definition finish (site : nat) (b1 b2 : bool) e i : bool * eng :=
  let e'' := if negb (is_completed (st e i)) then set_state site e i SCompleted else e in
  match n_next (tnode e'' i) with Some nx => (b1, sched_next e'' nx i) | None => (b2, e'') end.
Definition handover f cv e i : eng := match parent e i with Some p => review f cv i e p | None => e end.
(* r is what the kind's part returns: whether a successor was started (next) / the parent is to be reviewed (review), and the engine *)
Definition next_end f cv i (r : bool * eng) : eng :=
  let '(isn, e1) := r in
  if is_completed (st e1 i) then
    let e2 := emit f (update_data e1 i cv) i in
    if negb isn && negb (t_evproc (tk e2 i)) then handover f cv e2 i else e2
  else e1.
Definition review_end f cv i (before : TaskState) (r : bool * eng) : eng :=
  let '(isr, e1) := r in
  let e2 := if is_completed (st e1 i) && negb (is before (st e1 i)) then emit f e1 i else e1 in
  if isr then handover f cv e2 i else e2.
(* The kind's part, cut out of the model's text (lets kept).  The text of next is taken to be `let '(isn, e1) := HEAD in ...`,
   that of review `if ... then e else let e0 := ... in let before := ... in let '(isr, e1) := HEAD in ...`, where `from`
   enters HEAD through e0 only. *)
Definition next_head f cv e i : bool * eng :=
  ltac:(let t := eval cbn beta iota fix delta [next] in (next (S f) cv e i) in
        lazymatch t with
        | (match ?X with pair _ _ => _ end) => exact X
        | _ => fail "next no longer has the shape let '(isn, e1) := HEAD in ..."
        end).
Definition review_head f cv e i : bool * eng :=
  ltac:(let t := eval cbn beta iota fix delta [review] in (review (S f) cv i e i) in
        lazymatch t with
        | (if _ then _ else let e0 := _ in let before := _ in match @?X e0 before with pair _ _ => _ end) =>
            let r := eval cbv beta in (X e (st e i)) in exact r
        | _ => fail "review no longer has the shape if _ then e else let e0 := _ in let before := _ in let '(isr, e1) := HEAD in ..."
        end).
(* each side is first brought to the model's text (lets kept), so that what is compared is the same text twice *)
Lemma next_phases f cv e i : next (S f) cv e i = next_end f cv i (next_head f cv e i).
Proof. cbn beta iota fix delta [next]. cbv beta delta [next_end next_head handover]. reflexivity. Qed.
Lemma review_phases f cv from e i :
  review (S f) cv from e i =
  if t_evproc (tk e from) then e else let e0 := update_data e i (outputs e from) in review_end f cv i (st e0 i) (review_head f cv e0 i).
Proof. cbn beta iota fix delta [review]. cbv beta delta [review_end review_head handover]. reflexivity. Qed.

Lemma review_head_container f cv e i : (kind e i = KWorkflow \/ kind e i = KBranch) -> st e i = SRunning ->
  exists site, review_head f cv e i =
    if forallb (fun j => is_completed (st e j) || t_evproc (tk e j)) (children e i) then (true, set_state site e i SCompleted) else (false, e).
Proof. intros [Hk | Hk] Hs; eexists; unfold review_head; rewrite Hk, Hs; reflexivity. Qed.
Lemma step_scan_none f cv e l : (forall j, In j l -> is (st e j) SPending = false) -> step_scan f cv l e = (None, e).
Proof.
  induction l as [|j l IHl]; intros Hl; [reflexivity|]. cbn [step_scan]. fold (step_scan f cv).
  rewrite (Hl j (or_introl eq_refl)). apply IHl. intros; apply Hl; now right.
Qed.
Lemma review_head_step f cv e i : kind e i = KStep -> st e i = SRunning -> (forall j, In j (children e i) -> is (st e j) SPending = false) ->
  review_head f cv e i = if forallb (fun j => is_completed (st e j)) (children e i) then finish 16 false true e i else (false, e).
Proof. intros Hk Hs Hp. unfold review_head. rewrite Hk, Hs. fold (step_scan f cv). now rewrite (step_scan_none f cv e _ Hp). Qed.
Lemma review_end_closed f cv p before (isr : bool) e1 : is_completed before = false -> is_completed (st e1 p) = true ->
  review_end f cv p before (isr, e1) = if isr then handover f cv (emit f e1 p) p else emit f e1 p.
Proof.
  intros Hb Hc. unfold review_end. rewrite Hc. replace (is before (st e1 p)) with false; [reflexivity|].
  destruct before; try discriminate Hb; destruct (st e1 p); try discriminate Hc; reflexivity.
Qed.
Lemma next_head_workflow f cv e i : kind e i = KWorkflow -> exists b, next_head f cv e i = (b, e).
Proof. intros Hk. unfold next_head. rewrite Hk. destruct (is_next (st e i)); eexists; reflexivity. Qed.
Lemma next_head_childless f cv e i : (kind e i = KStep \/ kind e i = KAct) -> st e i = SRunning -> children e i = [] ->
  next_head f cv e i = finish 12 true false e i.
Proof. intros Hk Hs Hc. unfold next_head. rewrite Hs, Hc. destruct Hk as [-> | ->]; cbn [fold_left]; cbv zeta; rewrite Hc; reflexivity. Qed.
Lemma next_head_closed_act f cv e i : kind e i = KAct -> is_completed (st e i) = true ->
  next_head f cv e i = if is (st e i) SSkipped || is (st e i) SCompleted
                       then match n_next (tnode e i) with Some nx => (true, sched_next e nx i) | None => (false, e) end else (false, e).
Proof. intros Hk Hc. unfold next_head. rewrite Hk. destruct (st e i); try discriminate Hc; reflexivity. Qed.
Lemma next_end_open f cv i (isn : bool) e1 : is_completed (st e1 i) = false -> next_end f cv i (isn, e1) = e1.
Proof. intros Ho. unfold next_end. now rewrite Ho. Qed.

(* the end of the abort arm of perform (context.rs abort_task once the act is written aborted and emitted): the sweep over the
   open tasks, then the ancestors *)
Definition abort_rest e2 i : eng :=
  let e3 := abort_sweep e2 (ancestors (S (length (tasks e2))) e2 (parent e2 i)) in
  abort_up (S (length (tasks e3))) e3 (parent e3 i).
Lemma perform_abort e i cv :
  perform e i AAbort cv =
  let e1 := close_open 26 e (siblings e i) SSkipped in
  ret_ok (abort_rest (emit (fuel_of e1) (set_data (set_state 27 e1 i SAborted) i cv) i) i).
Proof. (* abort_rest is opened first: left folded, `reflexivity` does not return *) cbv beta delta [abort_rest]. reflexivity. Qed.

(* These come last: cbn obeys `simpl never` too, so after them the `eval cbn` that computes the statements above and the
   `cbn [...]` that opens their proofs would leave the functions folded. *)
Global Arguments emit : simpl never.
Global Arguments emit_error : simpl never.
Global Arguments next : simpl never.
Global Arguments review : simpl never.
Global Arguments exec : simpl never.
(* fuel_of e is 16 + 8 * length (tasks e): simpl would compute it to sixteen S over a sum wherever it stands for the fuel of a call,
   and the lemmas stated with `fuel_of e` would no longer match *)
Global Arguments fuel_of : simpl never.
