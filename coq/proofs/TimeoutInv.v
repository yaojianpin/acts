(* Timeout rules (C19).  The timeout part of the engine invariant: every firing recorded in the trace happened after the
   limit, no (task, rule) pair fired twice, and a rule that fired is flagged on its task.  Then what one tick (Process::do_tick) does. *)
From Coq Require Import List ZArith Bool Lia Permutation.
Import ListNotations.
From Acts.Gen Require Import GenState.
From Acts.Model Require Import Engine.
From Acts.Proofs Require Import ListFacts EngineBasics.

Definition fire_ok (x : ev) : bool :=
  match x with EFire _ _ now start limit => Z.leb limit (now - start) | _ => true end.
Fixpoint fires (tr : list ev) : list (nat * nat) :=
  match tr with
  | [] => []
  | EFire t on _ _ _ :: r => (t, on) :: fires r
  | _ :: r => fires r
  end.
Definition T (e : eng) : Prop :=
  forallb fire_ok (trace e) = true /\ NoDup (fires (trace e)) /\
  (forall t on, In (t, on) (fires (trace e)) -> In on (t_tmo_done (tk e t))).

Lemma fires_app a b : fires (a ++ b) = fires a ++ fires b.
Proof. induction a as [|x a IH]; simpl; auto. destruct x; simpl; rewrite ?IH; auto. Qed.
Lemma fires_noncore l : forallb (fun x => negb (is_trans x)) l = true -> fires l = [] /\ forallb fire_ok l = true.
Proof.
  induction l as [|x l IH]; simpl; auto. intros H. apply andb_true_iff in H as [H1 H2].
  destruct (IH H2) as [I1 I2]. destruct x; simpl in *; try discriminate; auto.
Qed.

Lemma T_grow e e' l : trace e' = trace e ++ l -> fires l = [] -> forallb fire_ok l = true ->
  (forall t, t_tmo_done (tk e' t) = t_tmo_done (tk e t)) -> T e -> T e'.
Proof.
  intros Tl Fn Fo K (H1 & H2 & H3). unfold T. rewrite Tl, forallb_app, fires_app, Fn, app_nil_r, H1, Fo.
  split; [reflexivity | split; [exact H2|]]. intros t on Hin. rewrite K. now apply H3.
Qed.
Lemma T_ext e e' : ext e e' -> T e -> T e'.
Proof.
  intros X. pose proof X as (_ & (l & Tl & Fl & _) & _). destruct (fires_noncore l Fl) as [Fn Fo].
  apply (T_grow e e' l Tl Fn Fo). intros t. apply (ext_tmo _ _ t X).
Qed.
Lemma T_set_state site e i s : T e -> T (set_state site e i s).
Proof.
  destruct (set_state_cases site e i s) as [-> | [_ Tr]]; [auto|].
  apply (T_grow _ _ _ Tr); [reflexivity | reflexivity | intros t; now apply set_state_keeps].
Qed.
Lemma T_tmod e i f : (forall x, t_tmo_done (f x) = t_tmo_done x) -> T e -> T (tmod e i f).
Proof. intros K. apply (T_grow e _ []); [symmetry; apply app_nil_r | reflexivity | reflexivity | intros t; now apply tmod_keeps]. Qed.

Definition fire (e : eng) (t : nat) (r : nat * Z) : eng :=
  add_tmo_done (add_ev e (EFire t (fst r) (clock e) (t_start (tk e t)) (snd r))) t (fst r).
(* what a tick leaves alone once the clock is advanced *)
Definition stable (e e' : eng) : Prop :=
  clock e' = clock e /\ ntasks e <= ntasks e' /\
  forall t, st e' t = st e t /\ t_start (tk e' t) = t_start (tk e t) /\ t_timeouts (tk e' t) = t_timeouts (tk e t) /\
            incl (t_tmo_done (tk e t)) (t_tmo_done (tk e' t)).
Lemma stable_refl e : stable e e.
Proof. split; [reflexivity | split; [apply le_n|]]. intros t. repeat split. apply incl_refl. Qed.
Lemma stable_trans a b c : stable a b -> stable b c -> stable a c.
Proof.
  intros (C1 & L1 & H1) (C2 & L2 & H2). split; [congruence | split; [lia|]].
  intros t. destruct (H1 t) as (a1 & b1 & c1 & d1), (H2 t) as (a2 & b2 & c2 & d2).
  split; [congruence | split; [congruence | split; [congruence | exact (incl_tran d1 d2)]]].
Qed.
Lemma stable_st e e' t : stable e e' -> st e' t = st e t.
Proof. intros (_ & _ & H). exact (proj1 (H t)). Qed.
Lemma stable_flag e e' t on : stable e e' -> In on (t_tmo_done (tk e t)) -> In on (t_tmo_done (tk e' t)).
Proof. intros (_ & _ & H). exact (proj2 (proj2 (proj2 (H t))) on). Qed.
(* a task beyond the end reads as `dtask`, and a fresh task differs from it in node and predecessor only *)
Lemma stable_sched e n p : stable e (sched e n p).
Proof.
  split; [reflexivity | split; [rewrite ntasks_sched; lia|]]. intros t. unfold st. rewrite tk_sched.
  destruct (Nat.eqb_spec t (ntasks e)) as [->|_]; [unfold tk; rewrite nth_overflow by apply le_n|]; repeat split; apply incl_refl.
Qed.
Lemma stable_sched_nodes e l i : stable e (sched_nodes e l i).
Proof. apply (fold_left_preorder stable); [exact stable_refl | exact stable_trans | intros; apply stable_sched]. Qed.
Lemma stable_fire e t r : stable e (fire e t r).
Proof.
  unfold fire, add_tmo_done. split; [reflexivity | split; [rewrite ntasks_tmod; apply le_n|]].
  intros x. unfold st. rewrite tk_tmod.
  destruct (Nat.eqb x t && _) eqn:E; [|repeat split; apply incl_refl].
  apply andb_true_iff in E as [E _]. apply Nat.eqb_eq in E. subst x. repeat split. apply incl_tl, incl_refl.
Qed.
Lemma fire_flags e t r : t < ntasks e -> In (fst r) (t_tmo_done (tk (fire e t r) t)).
Proof.
  intros H. apply Nat.ltb_lt in H. unfold fire, add_tmo_done. rewrite tk_tmod. change (ntasks (add_ev e _)) with (ntasks e).
  rewrite Nat.eqb_refl, H. now left.
Qed.

Lemma T_fire e t r : T e -> t < ntasks e ->
  rule_fires (clock e) (t_start (tk e t)) (t_tmo_done (tk e t)) (is_completed (st e t)) r = true -> T (fire e t r).
Proof.
  intros (H1 & H2 & H3) Ht Hr. unfold rule_fires in Hr.
  apply andb_true_iff in Hr as [Hr Hlim]. apply andb_true_iff in Hr as [_ Hnd]. apply negb_true_iff in Hnd.
  assert (Hnew : ~ In (t, fst r) (fires (trace e))).
  { intros Hin. apply H3, (existsb_eqb_In Nat.eqb Nat.eqb_eq) in Hin. congruence. }
  split; [|split]; cbn [fire add_tmo_done trace tmod with_tasks add_ev with_trace].
  - rewrite forallb_app, H1. simpl. now rewrite Hlim.
  - rewrite fires_app. simpl. apply NoDup_snoc; auto.
  - intros t' on Hin. rewrite fires_app in Hin. apply in_app_or in Hin as [Hin | [E | []]].
    + apply (stable_flag _ _ _ _ (stable_fire e t r)), H3, Hin.
    + inversion E; subst. now apply fire_flags.
Qed.

Definition tick_rule (t : nat) (ee : eng) (r : nat * Z) : eng :=
  if rule_fires (clock ee) (t_start (tk ee t)) (t_tmo_done (tk ee t)) (is_completed (st ee t)) r
  then sched_nodes (fire ee t r) (children_in (tnode ee t) (OTimeout (fst r))) t else ee.
Definition tick_rules (t : nat) (ee : eng) (rules : list (nat * Z)) : eng := fold_left (tick_rule t) rules ee.
Definition tick_tasks (l : list nat) (e : eng) : eng := fold_left (fun ee t => tick_rules t ee (t_timeouts (tk ee t))) l e.
Lemma do_tick_unfold e adv :
  do_tick e adv =
  let e0 := with_clock e (clock e + adv)%Z in
  if is (pstate e0) SRunning then
    persist (tick_tasks (sort_by (fun t => t_start (tk e0 t)) (filter (fun t => negb (Nat.eqb (length (t_timeouts (tk e0 t))) 0)) (seq 0 (length (tasks e0))))) e0)
  else e0.
Proof. reflexivity. Qed.
Lemma do_tick_inv (K : eng -> Prop) e adv :
  K (with_clock e (clock e + adv)%Z) -> (forall ee, K ee -> K (persist ee)) ->
  (forall ee t r, t < ntasks e -> K ee -> rule_fires (clock ee) (t_start (tk ee t)) (t_tmo_done (tk ee t)) (is_completed (st ee t)) r = true ->
     K (sched_nodes (fire ee t r) (children_in (tnode ee t) (OTimeout (fst r))) t)) ->
  K (do_tick e adv).
Proof.
  intros H0 Hp Hf. rewrite do_tick_unfold. cbv zeta. destruct (is _ SRunning); [apply Hp | exact H0].
  apply (fold_left_inv_in K); [|exact H0]. intros ee t Ht. apply In_sort_by, filter_In, proj1, in_seq, proj2 in Ht.
  apply (fold_left_inv K). intros ee2 r H2. unfold tick_rule. destruct (rule_fires _ _ _ _ r) eqn:Er; [now apply Hf | exact H2].
Qed.
Lemma stable_tick_rule t ee r : stable ee (tick_rule t ee r).
Proof.
  unfold tick_rule. destruct (rule_fires _ _ _ _ _); [|apply stable_refl].
  eapply stable_trans; [apply stable_fire | apply stable_sched_nodes].
Qed.
Lemma stable_tick_rules t rules ee : stable ee (tick_rules t ee rules).
Proof. apply (fold_left_preorder stable); [exact stable_refl | exact stable_trans | intros; apply stable_tick_rule]. Qed.
Lemma stable_tick_tasks l e : stable e (tick_tasks l e).
Proof. apply (fold_left_preorder stable); [exact stable_refl | exact stable_trans | intros; apply stable_tick_rules]. Qed.

Lemma tick_keeps_states e adv t : st (do_tick e adv) t = st e t.
Proof.
  rewrite do_tick_unfold. cbv zeta. destruct (is _ SRunning); [|reflexivity]. rewrite st_persist.
  change (st e t) with (st (with_clock e (clock e + adv)%Z) t). apply stable_st, stable_tick_tasks.
Qed.

(* C19 *)
Lemma closed_never_fires now start done r : rule_fires now start done true r = false.
Proof. reflexivity. Qed.

Definition due (e : eng) (t : nat) (limit : Z) : Prop :=
  t < ntasks e /\ is_completed (st e t) = false /\ (limit <= clock e - t_start (tk e t))%Z.
Lemma stable_due e e' t limit : stable e e' -> due e t limit -> due e' t limit.
Proof.
  intros (Hc & Hn & H) (Ht & Ho & Hl). destruct (H t) as (E1 & E2 & _). split; [lia | split; [now rewrite E1 | now rewrite Hc, E2]].
Qed.
Lemma tick_rule_flags t ee on limit : due ee t limit -> In on (t_tmo_done (tk (tick_rule t ee (on, limit)) t)).
Proof.
  intros (Ht & Ho & Hl). apply Z.leb_le in Hl. unfold tick_rule, rule_fires. cbn [fst snd]. rewrite Ho, Hl, andb_true_r. cbn [negb andb].
  destruct (existsb (Nat.eqb on) _) eqn:Ed; cbn [negb].
  - now apply (existsb_eqb_In Nat.eqb Nat.eqb_eq).
  - apply (stable_flag _ _ _ _ (stable_sched_nodes _ _ _)), (fire_flags ee t (on, limit) Ht).
Qed.
Lemma tick_rules_flags t on limit rules : In (on, limit) rules -> forall ee, due ee t limit ->
  In on (t_tmo_done (tk (tick_rules t ee rules) t)).
Proof.
  induction rules as [|r rules IH]; [intros []|]. intros [-> | Hin] ee Hd; cbn [tick_rules fold_left].
  - apply (stable_flag _ _ _ _ (stable_tick_rules t rules _)), tick_rule_flags, Hd.
  - apply IH; [exact Hin | exact (stable_due _ _ _ _ (stable_tick_rule t ee r) Hd)].
Qed.
(* C19: a rule of an open task fires at the first tick after its limit at the latest *)
Lemma due_rules_fire e adv t on limit :
  pstate e = SRunning -> t < ntasks e -> is_completed (st e t) = false ->
  In (on, limit) (t_timeouts (tk e t)) -> (limit <= clock e + adv - t_start (tk e t))%Z ->
  In on (t_tmo_done (tk (do_tick e adv) t)).
Proof.
  intros Hp Ht Hopen Hr Hlim. rewrite do_tick_unfold. cbv zeta. set (e0 := with_clock e (clock e + adv)%Z).
  assert (Hd : due e0 t limit) by (split; [exact Ht | split; [exact Hopen | exact Hlim]]).
  replace (is (pstate e0) SRunning) with true by (cbn [e0 pstate with_clock]; now rewrite Hp). rewrite tk_persist.
  set (ts := sort_by _ _). assert (Hin : In t ts).
  { apply (Permutation_in _ (Permutation_sym (sort_by_perm _ _))), filter_In. split; [apply in_seq; split; [lia | exact Ht]|].
    change (tk e0 t) with (tk e t). now destruct (t_timeouts (tk e t)). }
  clearbody ts. apply in_split in Hin as (l1 & l2 & ->).
  (* the tasks before t in the order leave the rule due, at t's turn it is flagged, later flags stay *)
  unfold tick_tasks. rewrite fold_left_app. cbn [fold_left]. fold (tick_tasks l1 e0).
  apply (stable_flag _ _ _ _ (stable_tick_tasks l2 _)).
  pose proof (stable_tick_tasks l1 e0) as S. apply tick_rules_flags with limit; [|exact (stable_due _ _ _ _ S Hd)].
  destruct S as (_ & _ & S). destruct (S t) as (_ & _ & -> & _). exact Hr.
Qed.
