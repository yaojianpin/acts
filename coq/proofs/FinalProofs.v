(* Terminal is final, operationally: across any further operations of a run a task in a terminal state other than
   error keeps it; hence an accepted complete / submit / remove / skip / abort of an act is the last action but cancel
   that the act ever accepts.  From the engine invariant (faithful log + legal writes) and the monotonicity of the trace.
   With it what else rests on the whole invariant: the order along `next` links and of the messages of a task, the return
   of a sub-process.  Last (C06), that emitting an error no catch takes changes nothing: this needs no invariant, it is
   C02Core.xext_emit_uncaught unpacked. *)
From Coq Require Import List ZArith Bool.
Import ListNotations.
From Acts.Gen Require Import GenState.
From Acts.Model Require Import Engine Oracles.
From Acts.Proofs Require Import EngineBasics ReviveInv LogInv TraceMono C02Core C05Proofs C02Ops.

Lemma terminal_nonerror_stays tr : forall c t, logok c tr = true -> forallb legal_ev tr = true ->
  is_completed (c t) = true -> c t <> SError -> cur c tr t = c t.
Proof.
  induction tr as [|x tr IH]; intros c t Hl Hp Hc He; [reflexivity|].
  cbn [logok forallb cur] in *. apply andb_true_iff in Hl as [Hx Hl]. apply andb_true_iff in Hp as [Px Pp].
  destruct (cstep_forward c x t Hx Px) as [(n & a & s & _ & Er) | [_ Hs]].
  - (* a revival starts from error *) apply andb_true_iff in Er as [Er _]. now apply is_eq in Er.
  - rewrite IH; auto; now rewrite (Hs Hc).
Qed.
Lemma stays e e' t : J e -> J e' -> pre e e' -> is_completed (st e t) = true -> st e t <> SError -> st e' t = st e t.
Proof.
  intros H1 H2 [l Hl] Hc He. destruct (log_segment e' (trace e) l [] H2) as [Hlog Hleg]; [now rewrite app_nil_r|].
  rewrite <- (proj2 (J_L _ H2)), Hl, cur_app. rewrite <- (proj2 (J_L _ H1)) in Hc, He |- *. now apply terminal_nonerror_stays.
Qed.
Lemma steps_stays e e' t : J e -> steps e e' -> is_completed (st e t) = true -> st e t <> SError -> st e' t = st e t.
Proof. intros HJ H. apply stays; [exact HJ | exact (steps_J _ _ H) | exact (steps_pre _ _ H)]. Qed.
(* C02: once terminal, for good -- unless in error, which a catch may still take *)
Theorem terminal_is_final_ops e ops t : J e -> is_completed (st e t) = true -> st e t <> SError ->
  st (fold_left apply_op ops e) t = st e t.
Proof. intros HJ. apply steps_stays; [exact HJ | now apply ops_steps]. Qed.
Theorem terminal_is_final ns c0 ops ops' t :
  is_completed (st (run ns c0 ops) t) = true -> st (run ns c0 ops) t <> SError ->
  st (run ns c0 (ops ++ ops')) t = st (run ns c0 ops) t.
Proof. intros Hc He. unfold run at 1. rewrite fold_left_app. fold (run ns c0 ops). apply terminal_is_final_ops; auto. apply run_J. Qed.

Definition closing (a : action) : option TaskState :=
  match a with ANext => Some SCompleted | ASubmit => Some SSubmitted | ARemove => Some SRemoved | ASkip => Some SSkipped | AAbort => Some SAborted | _ => None end.
Lemma closing_closers a s : closing a = Some s -> In (a, s) closers /\ is_completed s = true /\ s <> SError.
Proof. destruct a; intros H; inversion H; subst; (split; [unfold closers; auto 6 using in_eq, in_cons | split; [reflexivity | discriminate]]). Qed.
(* s is written to the open act, and whatever the engine goes on to do leaves it there *)
Lemma perform_closes e i a cv s : J e -> i < ntasks e -> is_completed (st e i) = false -> closing a = Some s ->
  st (perform e i a cv) i = s /\ is_completed s = true /\ s <> SError.
Proof.
  intros HJ Hi Ho Hc. destruct (closing_closers a s Hc) as (Hin & Hs1 & Hs2). split; [|now split].
  destruct (perform_closing e i cv a s HJ Hi Ho Hin) as (x & Hx & Sx & Hp). rewrite <- Sx.
  apply steps_stays; [exact (steps_J _ _ Hx) | exact Hp | now rewrite Sx | now rewrite Sx].
Qed.

(* C05: after an accepted complete / submit / remove / skip / abort of an act, whatever happens next -- any operations, any
   schedule, the same action again at once or later -- every further action on that act but cancel is rejected and changes
   nothing *)
Theorem closing_action_is_the_last e i a opts cv a' s ops b opts' :
  J e -> admission e i a opts = Some (cv, a') -> closing a' = Some s -> is_cancel b = false ->
  let e1 := fold_left apply_op ops (do_action e i a opts) in
  st e1 i = s /\ do_action e1 i b opts' = ret_err e1.
Proof.
  intros HJ Ha Hc Hb e1.
  destruct (admission_some _ _ _ _ _ _ Ha) as (_ & Hi & _ & _ & Hopen).
  assert (Hca : is_cancel a' = false) by (destruct a'; simpl in Hc; try discriminate; reflexivity).
  assert (Ho : is_completed (st e i) = false) by (apply Hopen; rewrite <- (admission_cancel _ _ _ _ _ _ Ha); exact Hca).
  assert (Ed : do_action e i a opts = perform e i a' cv) by (unfold do_action; now rewrite Ha).
  destruct (perform_closes e i a' cv s HJ Hi Ho Hc) as (S1 & S2 & S3).
  assert (J1 : J (do_action e i a opts)) by (apply (steps_J e), do_action_steps, HJ).
  assert (S1' : st (do_action e i a opts) i = s) by (rewrite Ed; exact S1).
  assert (Sf : st e1 i = s).
  { unfold e1. rewrite terminal_is_final_ops; auto; now rewrite S1'. }
  split; [exact Sf|]. apply terminal_rejects; auto. now rewrite Sf.
Qed.

(* C04 / C16, the order of a sequence: a task created through the `next` link of its predecessor -- the next step of a
   sequence, the next act of a step -- is created when the predecessor is in a terminal state, and (unless that state is an
   error a catch may still take) the predecessor stays in it for the rest of the run *)
Theorem next_link_after_terminal ns c0 ops l1 l2 t nid p at_ :
  trace (run ns c0 ops) = l1 ++ ENew t nid (Some p) at_ VNext :: l2 ->
  is_completed (cur c_none l1 p) = true /\
  (cur c_none l1 p <> SError -> st (run ns c0 ops) p = cur c_none l1 p).
Proof.
  intros E. destruct (log_segment _ l1 (ENew t nid (Some p) at_ VNext :: l2) [] (run_J ns c0 ops)) as [Hl HP]; [now rewrite app_nil_r|].
  cbn [logok evok forallb] in Hl, HP. apply andb_true_iff in Hl as [Hn Hl]. apply andb_true_iff in HP as [_ HP].
  split; [exact Hn|]. intros He. rewrite <- (proj2 (log_faithful ns c0 ops)), E, cur_app. cbn [cur cstep]. now apply terminal_nonerror_stays.
Qed.

(* C08: the messages of one task come in lifecycle order: between two messages of a task with no revival of it in between,
   the stage of the reported state does not decrease and a terminal report is never followed by a different one *)
Theorem messages_in_lifecycle_order ns c0 ops l1 l2 l3 t s1 i1 o1 s2 i2 o2 :
  trace (run ns c0 ops) = l1 ++ EMsg t s1 i1 o1 :: l2 ++ EMsg t s2 i2 o2 :: l3 -> ~ In t (revivals l2) ->
  stage s1 <= stage s2 /\ (is_completed s1 = true -> s2 = s1).
Proof.
  intros E Hr.
  destruct (message_reports_current ns c0 ops l1 (l2 ++ EMsg t s2 i2 o2 :: l3) t s1 i1 o1 E) as (E1 & _).
  assert (E' : trace (run ns c0 ops) = (l1 ++ EMsg t s1 i1 o1 :: l2) ++ EMsg t s2 i2 o2 :: l3) by (rewrite E, <- app_assoc; reflexivity).
  destruct (message_reports_current ns c0 ops _ l3 t s2 i2 o2 E') as (E2 & _).
  destruct (log_segment _ l1 (EMsg t s1 i1 o1 :: l2) (EMsg t s2 i2 o2 :: l3) (run_J ns c0 ops) E) as [Hl HP].
  cbn [logok forallb] in Hl, HP. apply andb_true_iff in Hl as [_ Hl]. apply andb_true_iff in HP as [_ HP].
  rewrite cur_app in E2. cbn [cur cstep] in E2. rewrite E1, E2.
  now apply history_forward.
Qed.

(* the return of a sub-process (runtime.rs return_to_act): the action on the calling act for a child that ended in state s *)
Definition return_action (s : TaskState) (code : option nat) : action :=
  match s with SAborted => AAbort | SSkipped => ASkip | SError => AError code | _ => ANext end.
Definition return_end (s : TaskState) : TaskState :=
  match s with SAborted => SAborted | SSkipped => SSkipped | SError => SError | _ => SCompleted end.
Lemma return_action_closing s code : s <> SError -> closing (return_action s code) = Some (return_end s).
Proof. destruct s; simpl; intros H; try reflexivity. congruence. Qed.
(* C15: when the child ended without error and its return is admitted, the calling act takes the state the ending maps to
   and keeps it whatever happens next; every later action on it but cancel -- a second return included -- is rejected *)
Theorem return_closes_for_good e i s code opts cv a' ops b opts' :
  J e -> s <> SError -> admission e i (return_action s code) opts = Some (cv, a') -> is_cancel b = false ->
  let e1 := fold_left apply_op ops (do_action e i (return_action s code) opts) in
  st e1 i = return_end s /\ do_action e1 i b opts' = ret_err e1.
Proof.
  intros HJ Hs Ha Hb. apply (closing_action_is_the_last e i (return_action s code) opts cv a' (return_end s) ops b opts' HJ Ha); auto.
  pose proof (admission_keeps _ _ _ _ _ _ Ha) as K. rewrite <- (return_action_closing s code Hs).
  destruct s; simpl in K |- *; try (rewrite K; reflexivity). congruence.
Qed.

(* C06, a non-matching catch changes nothing: emitting an errored task none of whose catches takes the error (no catch for
   the code, or the one catch already used) writes no task state and no error, and appends only events that are no state
   writes *)
Theorem uncaught_emit_changes_nothing f e j : j < ntasks e -> st e j = SError -> uncaught e j ->
  (forall t, st (emit f e j) t = st e t /\ t_err (tk (emit f e j) t) = t_err (tk e t) /\ t_catch_done (tk (emit f e j) t) = t_catch_done (tk e t)) /\
  exists l, trace (emit f e j) = trace e ++ l /\ forallb (fun x => negb (is_trans x)) l = true.
Proof.
  intros _ _ Hu. destruct (xext_emit_uncaught f e j Hu) as [(H1 & (l & Tl & Fl & _) & _) _]. split.
  - intros t. destruct (H1 t) as (a & b & c & _). auto.
  - exists l. auto.
Qed.
