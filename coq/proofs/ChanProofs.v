(* model/Chan.v, C18: a channel's handler is invoked for a message iff the channel is registered and its patterns match,
   and then once.  Both rest on one invariant of register and remove: an emitter holds at most one handler per channel id. *)
From Coq Require Import List Arith Bool Lia.
Import ListNotations.
From Acts.Model Require Import Chan.
From Acts.Proofs Require Import ListFacts.

Lemma star_matches s : forall fuel, length s + 2 <= fuel -> gmatch fuel [GStar] s = true.
Proof.
  induction s as [|x s IH]; intros fuel H.
  - destruct fuel as [|[|fuel]]; simpl in *; try lia; auto.
  - destruct fuel as [|fuel]; simpl in *; [lia|].
    rewrite IH by lia. now rewrite orb_true_r.
Qed.
Lemma glob_star s : glob [GStar] s = true.
Proof. unfold glob. apply star_matches. simpl. lia. Qed.
Theorem default_matches_all m : is_match default_opts m = true.
Proof. unfold is_match, default_opts; simpl. now rewrite !glob_star. Qed.

Definition ids (e : emitter) := map fst e.
Lemma ids_register e id o x : In x (ids (register e id o)) -> id = x \/ In x (ids e).
Proof.
  induction e as [|(id', o') r IH]; simpl; [tauto|].
  destruct (Nat.eqb_spec id id') as [<-|]; simpl; [tauto|]. intros [H | H]; [tauto | apply IH in H; tauto].
Qed.
Lemma register_nodup e id o : NoDup (ids e) -> NoDup (ids (register e id o)).
Proof.
  induction e as [|(id', o') r IH]; simpl; intros H; [constructor; [intros []|constructor]|].
  inversion H; subst. destruct (Nat.eqb_spec id id'); simpl.
  - subst. constructor; auto.
  - constructor; auto. intros Hin. apply ids_register in Hin as [<- | Hin]; auto.
Qed.
Lemma remove_nodup e id : NoDup (ids e) -> NoDup (ids (remove e id)).
Proof. apply NoDup_map_filter. Qed.
Theorem reachable_nodup ops e : NoDup (ids e) -> NoDup (ids (fst (crun e ops))).
Proof.
  revert ops e. apply (run_inv cstep crun); [reflexivity | reflexivity|].
  intros e o H. destruct o; simpl; auto using register_nodup, remove_nodup.
Qed.

Fixpoint lookup (e : emitter) (id : nat) : option copts :=
  match e with [] => None | (id', o) :: r => if Nat.eqb id id' then Some o else lookup r id end.
Lemma lookup_register e id o j : lookup (register e id o) j = if Nat.eqb j id then Some o else lookup e j.
Proof. now apply (find_put Nat.eqb Nat.eqb_spec (fun j e => lookup e j) register). Qed.
Lemma lookup_remove e id j : lookup (remove e id) j = if Nat.eqb j id then None else lookup e j.
Proof. now apply (find_del Nat.eqb Nat.eqb_spec (fun j e => lookup e j)). Qed.
Lemma lookup_register_same e id o : lookup (register e id o) id = Some o.
Proof. now rewrite lookup_register, Nat.eqb_refl. Qed.
Lemma lookup_register_other e id o j : j <> id -> lookup (register e id o) j = lookup e j.
Proof. intros H. rewrite lookup_register. now apply Nat.eqb_neq in H as ->. Qed.
Lemma lookup_remove_same e id : lookup (remove e id) id = None.
Proof. now rewrite lookup_remove, Nat.eqb_refl. Qed.
Lemma lookup_remove_other e id j : j <> id -> lookup (remove e id) j = lookup e j.
Proof. intros H. rewrite lookup_remove. now apply Nat.eqb_neq in H as ->. Qed.

Lemma lookup_In e id o : NoDup (ids e) -> (lookup e id = Some o <-> In (id, o) e).
Proof. now apply (find_In Nat.eqb Nat.eqb_spec (fun j e => lookup e j)). Qed.
Theorem dispatch_iff e m id : NoDup (ids e) ->
  (In id (dispatch e m) <-> exists o, lookup e id = Some o /\ is_match o m = true).
Proof.
  intros Hn. unfold dispatch. rewrite in_map_iff. split.
  - intros ([i o] & <- & H). apply filter_In in H as [H1 H2]. exists o. split; [now apply lookup_In | exact H2].
  - intros (o & Hl & Hm). exists (id, o). split; [reflexivity|]. apply filter_In. split; [now apply lookup_In | exact Hm].
Qed.
Theorem dispatch_nodup e m : NoDup (ids e) -> NoDup (dispatch e m).
Proof. apply NoDup_map_filter. Qed.

Theorem invoked_iff ops m id : let e := fst (crun [] ops) in
  In id (dispatch e m) <-> exists o, lookup e id = Some o /\ is_match o m = true.
Proof. intros e. apply dispatch_iff. apply (reachable_nodup ops []). constructor. Qed.
Theorem no_duplicate_delivery ops m : NoDup (dispatch (fst (crun [] ops)) m).
Proof. apply dispatch_nodup. apply (reachable_nodup ops []). constructor. Qed.

Definition hub_ok (h : hub) : Prop := forall k, NoDup (ids (hget h k)).
Lemma hget_hset_same h k v : hget (hset h k v) k = v. Proof. destruct k; reflexivity. Qed.
Lemma hget_hset_other h k k' v : k' <> k -> hget (hset h k v) k' = hget h k'.
Proof. destruct k, k'; simpl; intros H; try reflexivity; contradiction. Qed.
Lemma hget_hremove h id k : hget (hremove h id) k = remove (hget h k) id. Proof. destruct k; reflexivity. Qed.
Lemma hkind_dec (a b : hkind) : {a = b} + {a <> b}. Proof. decide equality. Qed.
Lemma hstep_ok h o : hub_ok h -> hub_ok (fst (hstep h o)).
Proof.
  intros H. destruct o as [k id opts | id | k m]; simpl; auto.
  - intros k'. destruct (hkind_dec k' k) as [-> | Hne]; [rewrite hget_hset_same; now apply register_nodup | rewrite hget_hset_other; auto].
  - intros k. rewrite hget_hremove. now apply remove_nodup.
Qed.
Theorem hub_reachable_ok ops : forall h, hub_ok h -> hub_ok (fst (hrun h ops)).
Proof. revert ops. apply (run_inv hstep hrun); [reflexivity | reflexivity | exact hstep_ok]. Qed.
Lemma hub0_ok : hub_ok hub0. Proof. intros k; destruct k; constructor. Qed.
Theorem hub_invoked_iff ops k m id : let h := fst (hrun hub0 ops) in
  In id (dispatch (hget h k) m) <-> exists o, lookup (hget h k) id = Some o /\ is_match o m = true.
Proof. intros h. apply dispatch_iff. apply (hub_reachable_ok ops hub0 hub0_ok). Qed.
Theorem hub_no_duplicate ops k m : NoDup (dispatch (hget (fst (hrun hub0 ops)) k) m).
Proof. apply dispatch_nodup. apply (hub_reachable_ok ops hub0 hub0_ok). Qed.
Theorem hub_close_removes h id k : lookup (hget (hremove h id) k) id = None.
Proof. rewrite hget_hremove. apply lookup_remove_same. Qed.
Theorem hub_close_frame h id j k : j <> id -> lookup (hget (hremove h id) k) j = lookup (hget h k) j.
Proof. intros H. rewrite hget_hremove. now apply lookup_remove_other. Qed.
Theorem hub_closed_is_silent h id k m : hub_ok h -> ~ In id (dispatch (hget (hremove h id) k) m).
Proof.
  intros H Hin. assert (Hok : NoDup (ids (hget (hremove h id) k))) by (rewrite hget_hremove; apply remove_nodup, H).
  apply (dispatch_iff _ m id Hok) in Hin as (o & Hl & _). rewrite hub_close_removes in Hl. discriminate.
Qed.
Theorem hub_register_other_kinds h k id o k' : k' <> k -> hget (fst (hstep h (HOn k id o))) k' = hget h k'.
Proof. intros H. simpl. now apply hget_hset_other. Qed.
