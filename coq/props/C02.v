(* C02 Task lifecycle: only legal transitions, terminal states are final.
   Statements only.  Model: model/Engine.v (one process: scheduler steps, client actions, ticks, in any
   order -- `OSched k` picks any queued signal, so every schedule of whole engine operations is
   covered); legality: model/Oracles.v `legal` / `revive` over the state classes generated from
   acts/src/scheduler/state.rs. *)
From Coq Require Import List Arith ZArith Bool.
Import ListNotations.
From Acts.Gen Require Import GenState GenSchedNext.
From Acts.Model Require Import Engine Oracles.
From Acts.Proofs Require Import ReviveInv LogInv C02Ops FinalProofs SchedNext.

(* every state write of every run, for every node table (well-formed or not), every operation
   sequence and every schedule, moves the task forward through the stages
   none < created (ready / pending / interrupted) < running < terminal, or re-writes the same state,
   or is the revival of an errored task (error -> running) *)
Theorem C02_forward :
  forall (ns : list node) (clock0 : Z) (ops : list op) t o n at_ site,
    In (ETrans t o n at_ site) (trace (run ns clock0 ops)) -> legal o n = true \/ revive o n = true.
Proof. exact all_transitions_legal. Qed.

(* what `legal` means: the stage never decreases, and a terminal state is never left or changed *)
Theorem C02_legal_meaning :
  forall o n, legal o n = true -> stage o <= stage n /\ (is_completed o = true -> n = o).
Proof. exact legal_meaning. Qed.
(* the only way out of a terminal state is the revival of an errored task *)
Theorem C02_terminal_final :
  forall (ns : list node) (clock0 : Z) (ops : list op) t o n at_ site,
    In (ETrans t o n at_ site) (trace (run ns clock0 ops)) -> is_completed o = true -> n = o \/ (o = SError /\ n = SRunning).
Proof. exact terminal_final. Qed.

(* ... and that exception is taken at most once per task: no trace of any run holds two revival
   events of the same task (whatever lies before, between and after them) *)
Theorem C02_revived_at_most_once :
  forall (ns : list node) (clock0 : Z) (ops : list op) t l1 l2 l3 a1 s1 a2 s2,
    trace (run ns clock0 ops) = l1 ++ ETrans t SError SRunning a1 s1 :: l2 ++ ETrans t SError SRunning a2 s2 :: l3 -> False.
Proof. exact revived_at_most_once. Qed.
(* the same as a statement about the state history of a task, read off the trace (`cur c_none l t` is the
   state the writes of the prefix l leave task t in; `revivals l` lists the tasks revived in l):
   every write starts from the state the task has, and between any two points of a run with no revival of
   the task in between its stage never decreases and a terminal state is kept for good *)
Theorem C02_write_from_current :
  forall ns clock0 ops l1 l2 t o n a s,
    trace (run ns clock0 ops) = l1 ++ ETrans t o n a s :: l2 -> o = cur c_none l1 t.
Proof. exact write_from_current. Qed.
Theorem C02_states_only_move_forward :
  forall ns clock0 ops l1 l2 t,
    trace (run ns clock0 ops) = l1 ++ l2 -> ~ In t (revivals l2) ->
    stage (cur c_none l1 t) <= stage (st (run ns clock0 ops) t) /\
    (is_completed (cur c_none l1 t) = true -> st (run ns clock0 ops) t = cur c_none l1 t).
Proof. exact states_only_move_forward. Qed.
(* ... and operationally: a task that is in a terminal state other than error after some operations of a run is in
   that state after any further operations (an error may still be taken by a catch, once) *)
Theorem C02_terminal_is_final :
  forall ns clock0 ops ops' t,
    is_completed (st (run ns clock0 ops) t) = true -> st (run ns clock0 ops) t <> SError ->
    st (run ns clock0 (ops ++ ops')) t = st (run ns clock0 ops) t.
Proof. exact terminal_is_final. Qed.
(* non-vacuity: a run with a transition of every stage, and a revival *)
Example C02_example :
  let ns := [ Build_node 0 KWorkflow 0 [(ONormal, 1)] None None false [] dspec [] [] [] [] [] [] false;
              Build_node 1 KStep 1 [(ONormal, 2)] None None false [] dspec [None] [] [] [] [] [] false;
              Build_node 2 KAct 2 [] None None false [] dspec [] [] [] [] [] [] false ] in
  let e := run ns 1000 [ODrain; OAct 2 (AError (Some 1)) []; ODrain] in
  existsb (fun x => match x with ETrans 1 SError SRunning _ 19 => true | _ => false end) (trace e) = true /\
  existsb (fun x => match x with ETrans 2 SInterrupt SError _ 31 => true | _ => false end) (trace e) = true /\
  pstate e = SCompleted.
Proof. vm_compute. auto. Qed.

(* the scheduler step, statically tied to the source: gen/GenSchedNext.v is regenerated from Scheduler::next
   (scheduler.rs) on every run -- the order drop-check, exec, (on an error of exec) set the error, emit it, write the
   image, with no other way out and no state write of its own; the state predicate of the drop-check.  The model's
   `step_queue` (the `OSched` / `ODrain` operations every theorem above quantifies over) is the step of that table read
   through the state predicates regenerated from state.rs; so a task closed while it waited in the queue is not touched
   (a terminal state is final also for a queued task).  A drop-check with another predicate (only skipped / aborted,
   say), or moved behind exec, changes the table and breaks this proof. *)
Theorem C02_scheduler_step_matches_source :
  (forall e, step_queue e = step_of_source e) /\ sched_order = model_sched_order /\
  (forall e i q, queue e = i :: q -> is_completed (st (add_ev (with_queue e q) (EPop i)) i) = true ->
     step_queue e = add_ev (with_queue e q) (EPop i)).
Proof. split; [exact step_match|]. split; [exact sched_order_match | exact closed_in_queue_untouched]. Qed.

Print Assumptions C02_forward.
Print Assumptions C02_legal_meaning.
Print Assumptions C02_terminal_final.
Print Assumptions C02_revived_at_most_once.
Print Assumptions C02_write_from_current.
Print Assumptions C02_states_only_move_forward.
Print Assumptions C02_terminal_is_final.
Print Assumptions C02_scheduler_step_matches_source.
