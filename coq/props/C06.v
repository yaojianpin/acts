(* C06 Errors propagate upward unless a matching catch takes them, exactly once.  Statements only.
   Proved for every run of the engine model (any node table, operations, schedule): an error code is
   only ever stored on a task that is in the error state, so a task that was caught (error -> running)
   and its successors never carry a stale error; the only way a task ever leaves a terminal state is
   that revival.  The choice of the catch, the single execution of its steps and the bubbling order
   are covered by the trace correspondence (write sites 19, 20, 21, 31) and the oracle clause 202. *)
From Coq Require Import List Arith ZArith Bool.
Import ListNotations.
From Acts.Gen Require Import GenState.
From Acts.Model Require Import Engine.
From Acts.Proofs Require Import EngineBasics C02Core C02Ops FinalProofs.

Theorem C06_error_code_only_in_error_state :
  forall ns c0 ops t, t_err (tk (run ns c0 ops) t) <> None -> st (run ns c0 ops) t = SError.
Proof. exact error_only_with_error_state. Qed.
Theorem C06_only_revival_leaves_error :
  forall ns c0 ops t o n at_ site,
    In (ETrans t o n at_ site) (trace (run ns c0 ops)) -> is_completed o = true -> n = o \/ (o = SError /\ n = SRunning).
Proof. exact terminal_final. Qed.

(* a catch takes the error of a task at most once: no run revives a task twice, and a task that was
   revived carries the mark that makes every later catch of it a no-op (hook.rs $is_catch_processed) *)
Theorem C06_caught_at_most_once :
  forall ns c0 ops t l1 l2 l3 a1 s1 a2 s2,
    trace (run ns c0 ops) = l1 ++ ETrans t SError SRunning a1 s1 :: l2 ++ ETrans t SError SRunning a2 s2 :: l3 -> False.
Proof. exact revived_at_most_once. Qed.
Theorem C06_caught_is_marked :
  forall ns c0 ops t a s,
    In (ETrans t SError SRunning a s) (trace (run ns c0 ops)) -> t_catch_done (tk (run ns c0 ops) t) = true.
Proof. exact revived_is_marked. Qed.
(* a non-matching catch changes nothing (every engine state): emitting an errored task none of whose catches takes the
   error -- no catch for that code and no catch-all, or its one catch already used -- writes no task state, no error
   code and no mark, and appends only events that are no state writes (hook acts, the error message); the error then
   goes on to the parent (emit_error) *)
Theorem C06_non_matching_catch_changes_nothing :
  forall f e j, j < ntasks e -> st e j = SError -> uncaught e j ->
  (forall t, st (emit f e j) t = st e t /\ t_err (tk (emit f e j) t) = t_err (tk e t) /\ t_catch_done (tk (emit f e j) t) = t_catch_done (tk e t)) /\
  exists l, trace (emit f e j) = trace e ++ l /\ forallb (fun x => negb (is_trans x)) l = true.
Proof. exact uncaught_emit_changes_nothing. Qed.
(* non-vacuity: an error with code 1 on an act under a step that catches it; the step is revived once *)
Example C06_example :
  let ns := [ Build_node 0 KWorkflow 0 [(ONormal, 1)] None None false [] dspec [] [] [] [] [] [] false;
              Build_node 1 KStep 1 [(ONormal, 2)] None None false [] dspec [None] [] [] [] [] [] false;
              Build_node 2 KAct 2 [] None None false [] dspec [] [] [] [] [] [] false ] in
  let e := run ns 1000 [ODrain; OAct 2 (AError (Some 1)) []; ODrain] in
  existsb (fun x => match x with ETrans 1 SError SRunning _ 19 => true | _ => false end) (trace e) = true /\
  t_catch_done (tk e 1) = true /\ t_err (tk e 1) = None.
Proof. vm_compute. auto. Qed.
Print Assumptions C06_error_code_only_in_error_state.
Print Assumptions C06_caught_at_most_once.
Print Assumptions C06_caught_is_marked.
Print Assumptions C06_non_matching_catch_changes_nothing.
Print Assumptions C06_only_revival_leaves_error.
