(* C04 Control flow conforms to the YAML: order, branch selection, skips.  Statements only.
   The reference interpretation of the property is the engine model itself (model/Engine.v, written
   from the Rust sources and compared line by line with the implementation on every run); proved
   here is the branch-selection logic it uses, for every engine state:
   which branches start at once, which are skipped, and when a held-back branch is released. *)
From Coq Require Import List Arith ZArith Bool.
Import ListNotations.
From Acts.Gen Require Import GenState.
From Acts.Model Require Import Engine.
From Acts.Proofs Require Import EngineLemmas LogInv FinalProofs Ready.

(* a needs-branch starts exactly when a needed sibling has finished *)
Theorem C04_needs_branch_release :
  forall e i, n_kind (tnode e i) = KBranch -> n_needs (tnode e i) <> [] ->
  fst (is_ready e i) = true <->
  exists j, In j (siblings e i) /\ is_completed (st e j) = true /\ In (n_id (tnode e j)) (n_needs (tnode e i)).
Proof. exact needs_ready_iff. Qed.
(* the else branch runs exactly when no sibling condition held (every sibling was skipped) *)
Theorem C04_else_branch_release :
  forall e i, n_kind (tnode e i) = KBranch -> n_needs (tnode e i) = [] -> n_else (tnode e i) = true ->
  fst (is_ready e i) = true <-> forall j, In j (siblings e i) -> st e j = SSkipped.
Proof. exact else_ready_iff. Qed.
(* steps, acts and plain branches are never held back by is_ready *)
Theorem C04_others_not_held : forall e i, n_kind (tnode e i) <> KBranch -> is_ready e i = (true, e).
Proof. exact other_ready. Qed.
(* initialisation of a branch: needs -> pending; `if` false -> skipped, true -> runs; without `if`:
   not else -> skipped, else with siblings -> pending *)
Theorem C04_branch_init :
  forall e i, n_kind (tnode e i) = KBranch ->
  st (kind_init e i) i =
    (if negb (Nat.eqb (length (n_needs (tnode e i))) 0) then SPending
     else match n_if (tnode e i) with
          | Some b => match eval_cond (set_silent e i true) i b with Some false => SSkipped | _ => st e i end
          | None => if negb (n_else (tnode e i)) then SSkipped
                    else if Nat.ltb 1 (match parent (set_silent e i true) i with
                                       | Some p => length (normal_children (tnode (set_silent e i true) p)) | None => 1 end)
                         then SPending else st e i
          end) \/ length (tasks e) <= i.
Proof. exact branch_init_state. Qed.

(* order of a sequence, in every run (any node table, operations, schedule): a task created through the `next` link of
   its predecessor -- the next step of a sequence, the next act of a step -- is created when the predecessor is in a
   terminal state (`cur c_none l t` is the state the writes of the trace prefix l leave task t in), and unless that
   state is an error, which a catch may still take, the predecessor stays in it for the rest of the run *)
Theorem C04_successor_starts_after_predecessor_is_terminal :
  forall ns c0 ops l1 l2 t nid p at_,
    trace (run ns c0 ops) = l1 ++ ENew t nid (Some p) at_ VNext :: l2 ->
    is_completed (cur c_none l1 p) = true /\
    (cur c_none l1 p <> SError -> st (run ns c0 ops) p = cur c_none l1 p).
Proof. exact next_link_after_terminal. Qed.
(* non-vacuity: the second step of a sequence is created through the next link after the first one completed *)
Example C04_example_sequence :
  let ns := [ Build_node 0 KWorkflow 0 [(ONormal, 1)] None None false [] dspec [] [] [] [] [] [] false;
              Build_node 1 KStep 1 [] (Some 2) None false [] dspec [] [] [] [] [] [] false;
              Build_node 2 KStep 1 [] None None false [] dspec [] [] [] [] [] [] false ] in
  existsb (fun x => match x with ENew _ 2 (Some 1) _ VNext => true | _ => false end) (trace (run ns 1000 [ODrain])) = true.
Proof. vm_compute. reflexivity. Qed.
(* the release rule, statically tied to the source: gen/GenReady.v is regenerated from Task::is_ready (task.rs) on every
   run -- the state predicate a needed sibling must satisfy, the predicate every sibling must satisfy for an else branch,
   the predicates one of which makes an else branch give up, and the state it is then written.  `ready_of_source` reads
   these through the state predicates regenerated from state.rs; the model's `is_ready` (which the two release theorems
   above are about, and which every run of the model uses) is that function, for every engine state and task. *)
Theorem C04_release_rule_matches_source : forall e i, is_ready e i = ready_of_source e i.
Proof. exact ready_match. Qed.

Print Assumptions C04_needs_branch_release.
Print Assumptions C04_else_branch_release.
Print Assumptions C04_others_not_held.
Print Assumptions C04_branch_init.
Print Assumptions C04_successor_starts_after_predecessor_is_terminal.
Print Assumptions C04_release_rule_matches_source.
