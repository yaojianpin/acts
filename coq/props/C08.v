(* C08 Message stream is a faithful, ordered image of task lifecycles.  Statements only.
   `at most one terminal message per task` does not hold of the engine: C08_once_refuted exhibits a
   workflow whose step reports `completed` twice (a needs-branch resumed from inside the step's
   review).  Proved: which task states may produce a message at all (the gate of runtime.rs
   on_task). *)
From Coq Require Import List Arith ZArith Bool.
Import ListNotations.
From Acts.Gen Require Import GenState GenOnTask.
From Acts.Model Require Import Engine.
From Acts.Proofs Require Import EngineLemmas Findings ReviveInv LogInv C02Ops FinalProofs OnTask.

(* full statement (false): forall w ops e t s, go w ops = Some e -> is_completed s = true -> msgs e t s <= 1 *)
Theorem C08_once_refuted : exists w ops e t, go w ops = Some e /\ msgs e t SCompleted = 2.
Proof. exact message_twice_refutes. Qed.

(* a pending or running task, and a task whose emission is disabled (branches, acts until they run),
   never produces a message *)
Theorem C08_partial_gate : forall e i, msg_allowed e i = true ->
  st e i <> SPending /\ st e i <> SRunning /\ t_silent (tk e i) = false.
Proof. exact msg_gate. Qed.

(* the gate and the order of the on_task handler, statically tied to the source: gen/GenOnTask.v is regenerated from
   runtime.rs on every run (`on_task_gate_not`: the state predicates that block the message, next to `is_emit_disabled`;
   `on_task_order`: store write, lifecycle hooks, gate, message built, message sent, by position in the handler).  The
   model's gate is the gate of that table, read through the state predicates regenerated from state.rs, and the model's
   `emit` is written in that order: the message is decided on, and reports, the state the hooks (a catch that takes the
   error among them) left -- C08_message_reports_current_state.  A handler that builds the message before the hooks run,
   or a gate with another predicate, changes the table and breaks this proof. *)
Theorem C08_gate_and_order_match_source :
  (forall e i, msg_allowed e i = gate_of_source (st e i) (t_silent (tk e i))) /\
  on_task_order = model_on_task_order.
Proof. split; [exact gate_match | exact order_match]. Qed.

(* in every run (any node table, operations, schedule): a message reports the state its task has at the
   moment it is sent -- the state the task's last write gave it -- and that state is neither pending nor running *)
Theorem C08_message_reports_current_state :
  forall ns c0 ops l1 l2 t s ins outs,
    trace (run ns c0 ops) = l1 ++ EMsg t s ins outs :: l2 -> s = cur c_none l1 t /\ s <> SPending /\ s <> SRunning.
Proof. exact message_reports_current. Qed.
(* ... and the messages of one task come in lifecycle order: between two messages of a task, with no revival of it by a
   catch in between (`revivals l` lists the tasks revived in l), the stage of the reported state never decreases -- a
   created message never follows a terminal one -- and a terminal report is never followed by a different one *)
Theorem C08_messages_in_lifecycle_order :
  forall ns c0 ops l1 l2 l3 t s1 i1 o1 s2 i2 o2,
    trace (run ns c0 ops) = l1 ++ EMsg t s1 i1 o1 :: l2 ++ EMsg t s2 i2 o2 :: l3 -> ~ In t (revivals l2) ->
    Oracles.stage s1 <= Oracles.stage s2 /\ (is_completed s1 = true -> s2 = s1).
Proof. exact messages_in_lifecycle_order. Qed.
(* non-vacuity: the created and the completed message of an interrupt act *)
Example C08_example :
  let ns := [ Build_node 0 KWorkflow 0 [(ONormal, 1)] None None false [] dspec [] [] [] [] [] [] false;
              Build_node 1 KStep 1 [(ONormal, 2)] None None false [] dspec [] [] [] [] [] [] false;
              Build_node 2 KAct 2 [] None None false [] dspec [] [] [] [] [] [] false ] in
  let e := run ns 1000 [ODrain; OAct 2 ANext []; ODrain] in
  existsb (fun x => match x with EMsg 2 SInterrupt _ _ => true | _ => false end) (trace e) = true /\
  existsb (fun x => match x with EMsg 2 SCompleted _ _ => true | _ => false end) (trace e) = true.
Proof. vm_compute. auto. Qed.
Print Assumptions C08_once_refuted.
Print Assumptions C08_message_reports_current_state.
Print Assumptions C08_messages_in_lifecycle_order.
Print Assumptions C08_partial_gate.
Print Assumptions C08_gate_and_order_match_source.
