(* C03 Hierarchical completion and exactly one terminal event per process.  Statements only.
   The hierarchical part does not hold of the engine: C03_completion_refuted exhibits a history after
   which a step and the process are completed while an act of that step is still waiting.  Proved:
   terminal writes to the root are mirrored into the process state at once, and after the process
   has ended every client action is rejected (nothing can later be acted on). *)
From Coq Require Import List Arith ZArith Bool.
Import ListNotations.
From Acts.Gen Require Import GenState.
From Acts.Model Require Import Engine Class.
From Acts.Proofs Require Import EngineBasics EngineLemmas Findings C05Proofs Progress.

(* full statement (false): forall w ops e, go w ops = Some e -> open_under_completed e = false *)
Theorem C03_completion_refuted :
  exists w ops e, go w ops = Some e /\ open_under_completed e = true /\ pstate e = SCompleted.
Proof. exact completed_over_open_refutes. Qed.

(* exactly one terminal event (false): a workflow without steps delivers its completed event twice *)
Theorem C03_one_terminal_event_refuted : exists w ops e, go w ops = Some e /\ terminal_events e = 2.
Proof. exact terminal_twice_refutes. Qed.

Theorem C03_partial_root_mirrored : forall site e s, 0 < length (tasks e) -> is_completed s = true -> pstate (set_state site e 0 s) = s.
Proof. exact root_terminal_mirrored. Qed.
Theorem C03_partial_only_root_mirrored : forall site e i s, i <> 0 -> pstate (set_state site e i s) = pstate e.
Proof. exact other_writes_keep_pstate. Qed.
(* the two repaired sites: reviewing a running workflow or branch that still has a task started directly beneath it open
   (lifecycle-hook acts aside) changes nothing but the data handed up -- it is not completed over its open child
   (Workflow::review / Branch::review after the repairs edcdff9 / 551c70a; `review` is the engine's review step, `from`
   the child that finished) *)
Theorem C03_partial_workflow_and_branch_wait_for_their_children :
  forall f cv from e i,
    t_evproc (tk e from) = false ->
    let e' := update_data e i (outputs e from) in
    (kind e' i = KWorkflow \/ kind e' i = KBranch) -> st e' i = SRunning ->
    forallb (child_done e') (children e' i) = false ->
    review (S f) cv from e i = e'.
Proof. exact review_waits_for_children. Qed.
Theorem C03_partial_nothing_acted_on_after_end :
  forall e i a opts, is_completed (pstate e) = true -> do_action e i a opts = ret_err e.
Proof. exact ended_rejects. Qed.

(* the hierarchical part on a class of workflows, for every run (proofs/Progress.v; the class of model/Class.v: steps in
   sequence whose acts are interactive or message acts, any schedule, complete / submit / remove / skip / abort aimed at any task at any moment): no
   task is completed while a task whose parent it is is still open, and once the root task is closed every task is.  The
   invariant: the parent of an open task is running, and a parent has at most one open task at a time. *)
Theorem C03_hierarchy_sequential_interactive :
  forall ns c0 ops, frag_nodes ns = true -> forallb frag_op ops = true ->
  let e := run ns c0 ops in
  open_under_completed e = false /\ (is_completed (st e 0) = true -> forall j, j < ntasks e -> is_completed (st e j) = true).
Proof. exact sequential_interactive_hierarchy. Qed.

Print Assumptions C03_completion_refuted.
Print Assumptions C03_partial_root_mirrored.
Print Assumptions C03_partial_only_root_mirrored.
Print Assumptions C03_partial_workflow_and_branch_wait_for_their_children.
Print Assumptions C03_partial_nothing_acted_on_after_end.
Print Assumptions C03_hierarchy_sequential_interactive.
Print Assumptions C03_one_terminal_event_refuted.
