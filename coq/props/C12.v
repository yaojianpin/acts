(* C12 Restart / reload transparency at quiescent points.  Statements only.
   Proved: at every operation boundary of every run, what a reload reads back from the store image is
   the live picture of every task and of the process state (so a continuation that depends on tasks
   and process state only is the same).  What is NOT in the image are generated nodes that have no
   task yet (the later groups of a sequence, the not-yet-run acts of a block): the implementation
   loses them on reload -- known finding 12:generated_node_not_created, reproduced by the
   differential runs (memory store with eviction, SQLite store with restart). *)
From Coq Require Import List Arith ZArith Bool.
Import ListNotations.
From Acts.Model Require Import Engine.
From Acts.Proofs Require Import ImageProofs.

Theorem C12_partial_tasks_and_state_recovered :
  forall ns c0 ops, tasks (reload (run ns c0 ops)) = tasks (run ns c0 ops) /\ pstate (reload (run ns c0 ops)) = pstate (run ns c0 ops).
Proof. exact run_reload. Qed.
Theorem C12_partial_reload_of_an_image : forall e, image_ok e -> tasks (reload e) = tasks e /\ pstate (reload e) = pstate e.
Proof. exact reload_image. Qed.

Print Assumptions C12_partial_tasks_and_state_recovered.
Print Assumptions C12_partial_reload_of_an_image.
