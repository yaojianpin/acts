(* C10 Store contract: faithful records and one query semantics on every backend.
   Only statements, closed by `exact`, with their assumptions printed.  The models are
   model/StoreQ.v (memory-store query calculus, collection operations) and model/Fields.v
   (record <-> stored representation over the field tables generated from the Rust sources). *)
From Coq Require Import List String Bool Arith ZArith Sorting.Permutation Sorting.Sorted.
Import ListNotations.
From Acts.Gen Require Import GenStoreFields.
From Acts.Model Require Import StoreQ Fields.
From Acts.Proofs Require Import StoreQProofs FieldsProofs.

(* 1. create; find returns a record equal in every field -- memory backend, all six collections *)
Theorem C10_mem_create_find :
  forall (V : Type) (t : store_tables) (r : string -> V) (f : string),
    In t all_tables -> In f (st_fields t) -> mem_read V (mem_doc V t r) f = Some (r f).
Proof. intros V t r f Ht. exact (mem_roundtrip V t r f (proj1 (table_ok t Ht))). Qed.

(* 2. the same for the SQLite backend; update replaces every field but the id *)
Theorem C10_sql_create_find :
  forall (V : Type) (t : store_tables) (r : string -> V) (f : string),
    In t all_tables -> In f (st_fields t) -> sql_read V t (sql_create V t r) f = Some (r f).
Proof. intros V t r f Ht. exact (sql_create_find V t r f (proj2 (table_ok t Ht))). Qed.
Theorem C10_sql_update :
  forall (V : Type) (t : store_tables) (r0 r1 : string -> V) (f : string),
    In t all_tables -> In f (st_fields t) ->
    sql_read V t (sql_update V t r1 (sql_create V t r0)) f = Some (if String.eqb f "id" then r0 f else r1 f).
Proof. intros V t r0 r1 f Ht. exact (sql_update_find V t r0 r1 f (proj2 (table_ok t Ht))). Qed.

(* 3. collection operations behave like a map from id to record *)
Theorem C10_create_find : forall d k r, db_find (db_insert d k r) k = Some r.
Proof. exact find_insert_same. Qed.
Theorem C10_create_frame : forall d k r j, j <> k -> db_find (db_insert d k r) j = db_find d j.
Proof. exact find_insert_other. Qed.
Theorem C10_update_replaces : forall d k r, db_find d k <> None -> db_find (db_update d k r) k = Some r.
Proof. exact find_update_same. Qed.
Theorem C10_update_frame : forall d k r j, j <> k -> db_find (db_update d k r) j = db_find d j.
Proof. exact find_update_other. Qed.
Theorem C10_delete_removes : forall d k, db_find (db_delete d k) k = None.
Proof. exact find_delete_same. Qed.
Theorem C10_delete_frame : forall d k j, j <> k -> db_find (db_delete d k) j = db_find d j.
Proof. exact find_delete_other. Qed.
Theorem C10_reachable_is_map : forall ops, wf_db (fst (srun [] ops)).
Proof. intros ops. apply sorted_wf, srun_sorted. constructor. Qed.

(* 4. a query returns exactly the records satisfying its AND/OR filter (also when a sub-condition
      matches nothing), ordered by the requested keys, paged by offset/limit, with the true count *)
Theorem C10_query_filter :
  forall d cs, wf_db d -> select d cs = filter (fun kr => sat_query (snd kr) cs) d.
Proof. exact select_is_filter. Qed.
Theorem C10_query_page :
  forall d q, wf_db d ->
    let sel := filter (fun kr => sat_query (snd kr) (q_conds q)) d in
    let p := run_query d q in
    p_count p = List.length sel /\ p_page_size p = q_limit q /\
    exists all, Permutation sel all /\ (q_order q <> [] -> Sorted (le_rows (q_order q)) all) /\
                (q_order q = [] -> all = sel) /\
                p_rows p = firstn (q_limit q) (skipn (q_offset q) all).
Proof. exact run_query_spec. Qed.
Theorem C10_numbers_numerically :
  forall k x y a b, fget (snd x) k = JNum a -> fget (snd y) k = JNum b ->
    (le_rows [(k, false)] x y <-> (a <= b)%Z) /\ (le_rows [(k, true)] x y <-> (b <= a)%Z).
Proof. exact le_rows_num. Qed.

(* non-vacuity: a three-row store, a filter whose first expression matches nothing, an ordered page *)
Example C10_example :
  let d : db := fst (srun [] [SCreate 2 [(0, JNum 10); (1, JStr 7)]; SCreate 1 [(0, JNum 9); (1, JStr 7)];
                              SCreate 3 [(0, JNum 9); (1, JStr 8)]]) in
  wf_db d /\
  select d [ {| c_type := CAnd; c_exprs := [ {| e_op := EQ; e_key := 1; e_val := JStr 99 |};
                                             {| e_op := EQ; e_key := 0; e_val := JNum 9 |} ] |} ] = [] /\
  map fst (p_rows (run_query d {| q_conds := []; q_order := [(0, false); (1, true)]; q_offset := 0; q_limit := 2 |})) = [3; 1].
Proof. split; [apply C10_reachable_is_map|]. vm_compute. auto. Qed.

Print Assumptions C10_mem_create_find.
Print Assumptions C10_sql_create_find.
Print Assumptions C10_sql_update.
Print Assumptions C10_create_find.
Print Assumptions C10_create_frame.
Print Assumptions C10_update_replaces.
Print Assumptions C10_update_frame.
Print Assumptions C10_delete_removes.
Print Assumptions C10_delete_frame.
Print Assumptions C10_reachable_is_map.
Print Assumptions C10_query_filter.
Print Assumptions C10_query_page.
Print Assumptions C10_numbers_numerically.
