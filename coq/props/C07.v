(* C07 Data flow: inputs, act outputs and workflow outputs follow the scoping rules.  Statements only.
   Proved for every engine state and every write (Task::update_data, the single function through
   which start values, transform acts, scripts and client options write): the write reaches the
   writer and tasks of its ancestry only, names of the private class never leave the writer, and a
   task's outputs have exactly the declared keys plus `data` plus the exposed keys.  Read-your-writes
   along the flow and the values themselves are covered by the trace correspondence (message inputs /
   outputs, terminal event outputs, final task data). *)
From Coq Require Import List Arith ZArith Bool.
Import ListNotations.
From Coq Require Import String.
From Acts.Gen Require Import GenConsts.
From Acts.Model Require Import Engine.
From Acts.Proofs Require Import EngineLemmas.

Theorem C07_write_stays_in_ancestry :
  forall e i v t, t <> i -> ~ In t (scope e i) -> t_data (tk (update_data e i v) t) = t_data (tk e t).
Proof. exact update_data_scope. Qed.
Theorem C07_private_names_stay_in_task :
  forall e i v t k, t <> i -> pri_regex k = true -> vget (t_data (tk (update_data e i v) t)) k = vget (t_data (tk e t)) k.
Proof. exact update_data_private. Qed.
Theorem C07_outputs_have_declared_keys :
  forall e i, map fst (outputs e i) =
    map fst (vmerge (vmerge (n_outputs (tnode e i)) [(0, VNull)]) (map (fun k => (k, VNull)) (t_exposed (tk e i)))).
Proof. exact outputs_keys. Qed.

(* the private class of the model (keys 0 `data`, 1 `dataset`, 2 `__p` of the generated names) is the class of the source's
   pattern, regenerated from acts/src/utils/consts.rs on every run: names beginning with `data` or with `__` *)
Theorem C07_private_class_is_the_pattern_of_the_source :
  GenConsts.ACT_PRI_KEYS_REGEX = "^(data|__).*"%string /\ (forall k, pri_regex k = true <-> k <= 2).
Proof. split; [reflexivity|]. intros k. unfold pri_regex. apply Nat.leb_le. Qed.

Example C07_example :
  let ns := [ Build_node 0 KWorkflow 0 [(ONormal, 1)] None None false [] dspec [] [] [] [(3, VNum 5)] [(3, VNull)] [] false;
              Build_node 1 KStep 1 [(ONormal, 2)] None None false [] dspec [] [] [] [] [] [] false;
              Build_node 2 KAct 2 [] None None false [] dspec [] [] [] [] [(3, VNull)] [] false ] in
  let e := run ns 1000 [ODrain; OAct 2 ANext [(3, VNum 9); (2, VNum 1)]; ODrain] in
  (* the declared name k3 is updated in the workflow scope, the private name stays in the act *)
  vget (t_data (tk e 0)) 3 = Some (VNum 9) /\ vget (t_data (tk e 0)) 2 = None /\ scope e 2 = [1; 0].
Proof. vm_compute. auto. Qed.

Print Assumptions C07_write_stays_in_ancestry.
Print Assumptions C07_private_names_stay_in_task.
Print Assumptions C07_outputs_have_declared_keys.
Print Assumptions C07_private_class_is_the_pattern_of_the_source.
