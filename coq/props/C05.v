(* C05 Client actions: admission rules and at-most-once effect.  Statements only.
   Model: model/Engine.v `do_action` = Process::do_action + Task::update. *)
From Coq Require Import List Arith ZArith Bool.
Import ListNotations.
From Acts.Gen Require Import GenState GenUpdate GenDoAction.
From Acts.Model Require Import Engine.
From Acts.Proofs Require Import C05Proofs C02Core C02Ops FinalProofs ActionNames UpdateTable.

(* a rejected complete / submit / skip / remove / abort / error / back / push changes no task, emits
   no message, queues nothing: the engine state is returned as it was, only the result marker is
   appended; otherwise the action is accepted.  (`cancel` is not in the list: it can fail after it
   has marked path tasks.) *)
Theorem C05_reject_noop :
  forall e i a opts, is_cancel a = false ->
    do_action e i a opts = ret_err e \/ exists e', do_action e i a opts = ret_ok e'.
Proof. exact reject_noop. Qed.

(* an accepted action names an existing task of a process that has not ended, of the kind that fits
   the action (steps for push, acts otherwise), still open, with every declared output supplied *)
Theorem C05_admission :
  forall e i a opts e1, is_cancel a = false -> do_action e i a opts = ret_ok e1 ->
    is_completed (pstate e) = false /\ i < length (tasks e) /\
    (match a with APush _ => kind e i = KStep | _ => kind e i = KAct end) /\
    forallb (fun kv => vhas opts (fst kv)) (n_outputs (tnode e i)) = true /\
    is_completed (st e i) = false.
Proof.
  intros e i a opts e1 Hc H. destruct (accept_admissible e i a opts e1 H) as (A & B & C & D & E).
  repeat split; auto.
Qed.

(* once an act is terminal every further one of these actions on it is rejected, and so is every
   action once the process has ended *)
Theorem C05_terminal_rejects :
  forall e i a opts, is_cancel a = false -> is_completed (st e i) = true -> do_action e i a opts = ret_err e.
Proof. exact terminal_rejects. Qed.
Theorem C05_ended_rejects :
  forall e i a opts, is_completed (pstate e) = true -> do_action e i a opts = ret_err e.
Proof. exact ended_rejects. Qed.

(* at-most-once effect, for every reachable engine state e (J e is the engine invariant, which every run satisfies:
   C05_runs_satisfy_the_invariant): after an accepted complete / submit / remove / skip / abort of an act, whatever happens next
   -- any operations, any schedule, the same action again at once (two concurrent identical actions: one of them comes
   first) or later -- the act keeps the state that action gave it and every further action on it but cancel is rejected,
   changing nothing.  An action is one atomic operation of the model; the check-then-act race of two client threads
   inside one `update` is a runtime behaviour the model cannot exhibit (DESIGN.md); the held-scheduler corpus repeats
   actions identically against the real engine. *)
Theorem C05_closing_action_is_the_last :
  forall e i a opts cv a' s ops b opts',
    J e -> admission e i a opts = Some (cv, a') -> closing a' = Some s -> is_cancel b = false ->
    let e1 := fold_left apply_op ops (do_action e i a opts) in
    st e1 i = s /\ do_action e1 i b opts' = ret_err e1.
Proof. exact closing_action_is_the_last. Qed.
(* the tie of the action arms to the source, statically: gen/GenUpdate.v is regenerated from Task::update
   (acts/src/scheduler/process/task.rs) on every run -- per arm of `match action.event`: whether it begins with
   the `already completed` rejection before any effect, the state it writes to the act, whose open siblings it
   closes, its effectful calls in order.  Every action of the model has its arm; the rejection of a closed act
   is on every arm but cancel (what `admission` does); the state an arm writes is the state the model's action
   leaves the act in (`closing`); complete / submit / remove are `set_state; next` in both; skip closes the act's
   own open siblings and error the parent's, with the state of the table.  An arm edited in the source (another
   state, a dropped or moved guard, another sibling set) changes the table and breaks one of these. *)
Theorem C05_update_arms_match_source :
  forall a, exists r, arm_of (ev_name a) = Some r /\ a_event r = ev_name a /\
    a_guard r = negb (is_cancel a) /\
    (forall s, a_self r = Some s -> closing a = Some s) /\
    (a_self r = None -> closing a = None \/ a = AAbort) /\
    (forall e i cv s, a_calls r = plain_calls -> a_self r = Some s ->
       exists site, perform e i a cv = ret_ok (next (fuel_of e) cv (set_state site e i s) i)).
Proof.
  intros a. destruct (arm_exists a) as (r & Hr & Hn). exists r. split; [exact Hr|]. split; [exact Hn|].
  split; [exact (guards_match a r Hr)|]. split; [exact (fun s => self_state_match a r s Hr)|].
  split; [exact (no_self_state a r Hr)|]. exact (fun e i cv s => plain_closers e i a cv r s Hr).
Qed.
Theorem C05_skip_and_error_arms_match_source :
  (forall e i cv r w s s', arm_of n_skip = Some r -> a_sibs r = Some (w, s) -> a_self r = Some s' ->
     w = n_self /\
     perform e i ASkip cv = (let e1 := close_open 26 e (siblings e i) s in ret_ok (next (fuel_of e1) cv (set_state 25 e1 i s') i))) /\
  (forall e i cv c p r w s, arm_of n_error = Some r -> a_sibs r = Some (w, s) -> parent e i = Some p ->
     w = n_parent /\ a_self r = None /\
     perform e i (AError (Some c)) cv =
       (let e1 := close_open 32 e (siblings e p) s in ret_ok (emit_error (fuel_of e1) (set_data (set_err 31 e1 i c) i cv) i))) /\
  (exists r w s, arm_of n_skip = Some r /\ a_sibs r = Some (w, s)) /\ (exists r w s, arm_of n_error = Some r /\ a_sibs r = Some (w, s)) /\
  NoDup (map a_event update_arms).
Proof.
  split; [exact skip_arm|]. split; [exact error_arm|]. split; [|split; [|exact arms_distinct]]; vm_compute; do 3 eexists; split; reflexivity.
Qed.
(* Process::do_action, statically: the list and order of the rejections in front of Task::update is regenerated from
   process.rs on every run (`do_action_checks`; every way out of that part of the function must be one of the five
   checks the translator knows, or the run stops); what each check means is `chk_fails`.  The model rejects an action
   exactly when one of the source's checks fails or the arm's own `already completed` guard does; and an accepted action
   on an act with declared outputs carries exactly the declared keys (the source cuts the options). *)
Theorem C05_admission_is_the_checks_of_the_source :
  forall e i a opts,
    (admission e i a opts = None <->
       rejected_early e i a opts = true \/ (arm_guard a = true /\ is_completed (st e i) = true)) /\
    (forall cv a', admission e i a opts = Some (cv, a') -> do_action_cuts_options = true -> n_outs (tnode e i) = true ->
       map fst cv = map fst (n_outputs (tnode e i)) /\ a' = cut_action a).
Proof. intros e i a opts. split; [exact (admission_none_iff e i a opts) | exact (admission_cut e i a opts)]. Qed.
Theorem C05_runs_satisfy_the_invariant : forall ns c0 ops, J (run ns c0 ops).
Proof. exact run_J. Qed.
Example C05_example :
  let ns := [ Build_node 0 KWorkflow 0 [(ONormal, 1)] None None false [] dspec [] [] [] [] [] [] false;
              Build_node 1 KStep 1 [(ONormal, 2)] None None false [] dspec [] [] [] [] [] [] false;
              Build_node 2 KAct 2 [] None None false [] dspec [] [] [] [] [(3, VNull)] [] false ] in
  let e := run ns 1000 [ODrain] in
  (* declared output k3 missing: rejected, nothing changed *)
  do_action e 2 ANext [] = ret_err e /\
  (* supplied: accepted; a second one is rejected *)
  let e2 := apply_op (do_action e 2 ANext [(3, VNum 7)]) ODrain in
  existsb (fun x => match x with EAct true => true | _ => false end) (trace e2) = true /\
  do_action e2 2 ASubmit [(3, VNum 7)] = ret_err e2.
Proof. vm_compute. auto. Qed.

Print Assumptions C05_reject_noop.
Print Assumptions C05_admission.
Print Assumptions C05_terminal_rejects.
Print Assumptions C05_ended_rejects.
Print Assumptions C05_closing_action_is_the_last.
Print Assumptions C05_runs_satisfy_the_invariant.
Print Assumptions C05_update_arms_match_source.
Print Assumptions C05_skip_and_error_arms_match_source.
Print Assumptions C05_admission_is_the_checks_of_the_source.
