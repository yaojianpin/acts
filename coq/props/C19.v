(* C19 Timeout rules fire once, never early, and only for open tasks.  Statements only.
   Model: model/Engine.v do_tick (Process::do_tick + the Timeout arm of hook.rs); a firing is the
   event EFire task rule now start limit (the implementation logs the same line at the same place). *)
From Coq Require Import List Arith ZArith Bool.
Import ListNotations.
From Acts.Gen Require Import GenState GenTimeout.
From Acts.Model Require Import Engine Limit.
From Acts.Proofs Require Import EngineBasics TimeoutInv C02Ops LimitProofs TimeoutTable.

(* in every run -- any node table, any interleaving of scheduler steps, client actions and ticks of
   any spacing -- a rule fires only when the task has been open for at least the configured
   duration: never early *)
Theorem C19_never_early :
  forall ns clock0 ops t on now start limit,
    In (EFire t on now start limit) (trace (run ns clock0 ops)) -> (limit <= now - start)%Z.
Proof. exact never_early. Qed.
(* ... and at most once per task instance and rule *)
Theorem C19_at_most_once : forall ns clock0 ops, NoDup (fires (trace (run ns clock0 ops))).
Proof. exact at_most_once. Qed.
(* a task that is terminal never triggers a rule *)
Theorem C19_closed_never_fires : forall now start done r, rule_fires now start done true r = false.
Proof. exact closed_never_fires. Qed.
(* no later than the first tick after the limit while the task is still open: after a tick of a
   running process every due rule of an open task is flagged as fired *)
Theorem C19_fires_when_due :
  forall e adv t on limit,
    pstate e = SRunning -> t < ntasks e -> is_completed (st e t) = false ->
    In (on, limit) (t_timeouts (tk e t)) -> (limit <= clock e + adv - t_start (tk e t))%Z ->
    In on (t_tmo_done (tk (do_tick e adv) t)).
Proof. exact due_rules_fire. Qed.
(* firing a rule does not by itself close the timed task (nor change any task's state) *)
Theorem C19_firing_keeps_states : forall e adv t, st (do_tick e adv) t = st e t.
Proof. exact tick_keeps_states. Qed.

(* non-vacuity: an act with a 2 s rule; a tick at +0.5 s does nothing, a tick at +2.5 s fires once,
   a third tick does not fire again *)
Example C19_example :
  let ns := [ Build_node 0 KWorkflow 0 [(ONormal, 1)] None None false [] dspec [] [] [] [] [] [] false;
              Build_node 1 KStep 1 [(ONormal, 2)] None None false [] dspec [] [] [] [] [] [] false;
              Build_node 2 KAct 2 [(OTimeout 2, 3)] None None false [] dspec [] [(2, 2000%Z)] [] [] [] [] false;
              Build_node 3 KStep 3 [] None None false [] dspec [] [] [] [] [] [] false ] in
  let e := run ns 1000 [ODrain; OTick 500; ODrain; OTick 2000; ODrain; OTick 3000; ODrain] in
  fires (trace e) = [(2, 2)] /\ st e 2 = SInterrupt.
Proof. vm_compute. auto. Qed.

(* the configured duration: a limit is a value followed by one unit letter (s, m, h, d), the value an i64 as
   i64::from_str reads it; the tick compares the elapsed milliseconds with value * factor(unit) * 1000, a longer
   configured duration never gives a shorter limit (model/Limit.v, compared with TimeoutLimit::parse / as_secs on
   generated strings, overflow boundaries included, and used by the engine model for every rule) *)
Theorem C19_limit_syntax :
  forall s v u, parse_limit s = Some (v, u) <-> exists p, s = p ++ [byte_of_unit u] /\ parse_i64 p = Some v.
Proof. exact parse_limit_spec. Qed.
Theorem C19_limit_value_is_i64 : forall l v, parse_i64 l = Some v -> (i64_min <= v <= i64_max)%Z.
Proof. exact parse_i64_range. Qed.
Theorem C19_limit_conversion :
  (forall v u, as_secs (v, u) = (v * factor u)%Z) /\
  factor USecond = 1%Z /\ factor UMinute = 60%Z /\ factor UHour = (60 * 60)%Z /\ factor UDay = (60 * 60 * 24)%Z.
Proof. split; [exact as_secs_factor | exact factor_values]. Qed.
Theorem C19_limit_monotone : forall v v' u, (v <= v')%Z -> (limit_ms (v, u) <= limit_ms (v', u))%Z.
Proof. exact limit_monotone. Qed.
Example C19_limit_example :
  parse_limit [57; 48; 109] = Some (90%Z, UMinute) /\ limit_ms (90%Z, UMinute) = 5400000%Z /\
  parse_limit [53; 32; 115] = None /\ parse_limit [45; 115] = None.
Proof. vm_compute. auto. Qed.
(* the firing rule, statically tied to the source: gen/GenTimeout.v is regenerated from the Timeout arm of hook.rs on every
   run -- the order closed-check, processed-check, due-check, mark, schedule (no other way out, no state write), the state
   predicate of the closed-check, the comparison of the due-check and the factor seconds -> clock units.  The model's
   `rule_fires` (what every tick of every run uses, and what the theorems above are about) is the rule of that table read
   through the state predicates regenerated from state.rs; the order is the model's; the factor is the one of `limit_ms`.
   `>=` turned into `>`, another predicate in the closed-check, the mark set after the scheduling, another factor: each
   changes the table and breaks this proof. *)
Theorem C19_firing_rule_matches_source :
  (forall now start done s r, rule_fires now start done (is_completed s) r = fires_of_source now start done s r) /\
  tmo_order = model_tmo_order /\
  (forall x, limit_ms x = (as_secs x * tmo_factor)%Z).
Proof. split; [exact fires_match|]. split; [exact tmo_order_match | exact factor_match]. Qed.

Print Assumptions C19_never_early.
Print Assumptions C19_at_most_once.
Print Assumptions C19_closed_never_fires.
Print Assumptions C19_fires_when_due.
Print Assumptions C19_firing_keeps_states.
Print Assumptions C19_limit_syntax.
Print Assumptions C19_limit_value_is_i64.
Print Assumptions C19_limit_conversion.
Print Assumptions C19_limit_monotone.
Print Assumptions C19_firing_rule_matches_source.
