(* C15 Sub-process call and return.  Statements only.
   Model: the call protocol of model/Multi.v (package/core/subflow.rs, runtime.rs return_to_act) as a
   checker of what is observed of a parent / child pair; proved is what an accepted observation means.
   The checker (extracted) runs on the message streams and state writes of both processes of every
   generated call history on the real engine. *)
From Coq Require Import List Arith ZArith Bool.
Import ListNotations.
From Acts.Gen Require Import GenState.
From Acts.Model Require Import Engine Multi.
From Acts.Proofs Require Import MultiProofs C02Core FinalProofs ActionNames ReturnMap.

Theorem C15_accepted_observation :
  forall o, call_check o = [] -> co_missing o = false ->
  co_inputs_ok o = true /\
  match co_child_end o with
  | None => co_act_ends o = [] /\ co_parent_end o = None
  | Some (s, t) =>
      co_outs_ok o = true /\
      (co_act_ends o = [] -> co_quiescent o = false) /\
      (forall s' t', In (s', t') (co_act_ends o) -> co_act_ends o = [(s', t')] /\ s' = expected_end o s /\ (t <= t')%Z) /\
      (forall tp, co_parent_end o = Some tp -> (t <= tp)%Z)
  end.
Proof. exact call_check_sound. Qed.
(* a calling act closed by a client action on its own process while the child still ran is closed exactly once
   all the same: the child's late return (refused, the act is terminal) leaves it alone *)
Theorem C15_forced_close_stays_single :
  forall o, forced_check o = [] -> co_inputs_ok o = true /\ exists x, co_act_ends o = [x].
Proof. exact forced_check_sound. Qed.
(* the engine side of the return, for every reachable state of the calling process (J e is the engine invariant every
   run satisfies): when the child ended without error and its return -- a client action on the calling act: next, abort
   or skip according to the child's ending (runtime.rs return_to_act) -- is admitted, the calling act takes the state
   the ending maps to and keeps it whatever happens next, and every later action on it but cancel, a second return
   included, is rejected: the act is closed exactly once *)
(* a calling act that catches the error of its child: an accepted observation shows the act written error no earlier than the
   child's ending, then completed, each once, and not left open (the handler ran and the flow goes on) *)
Theorem C15_caught_child_error_completes_the_act :
  forall o, caught_check o = [] ->
  co_inputs_ok o = true /\ exists t t1 t2, co_child_end o = Some (SError, t) /\ co_act_ends o = [(SError, t1); (SCompleted, t2)] /\
                                          (t <= t1)%Z /\ (t1 <= t2)%Z /\ co_act_open o = false.
Proof. exact caught_check_sound. Qed.
Theorem C15_return_closes_the_act_for_good :
  forall e i s code opts cv a' ops b opts',
    J e -> s <> SError -> admission e i (return_action s code) opts = Some (cv, a') -> is_cancel b = false ->
    let e1 := fold_left apply_op ops (do_action e i (return_action s code) opts) in
    st e1 i = return_end s /\ do_action e1 i b opts' = ret_err e1.
Proof. exact return_closes_for_good. Qed.
Theorem C15_return_end_is_the_mapping : forall s, return_end s = return_state s.
Proof. destruct s; reflexivity. Qed.
Theorem C15_missing_model_fails_the_act : forall o, call_check o = [] -> co_missing o = true -> co_act_open o = false.
Proof. exact call_check_missing. Qed.
(* expected_end is the return mapping, except that a return the calling act cannot take (a declared
   output is missing) fails the calling act whatever the child's ending *)
Theorem C15_expected_end :
  forall o s, (co_unsatisfied o = false -> expected_end o s = return_state s) /\
              (co_unsatisfied o = true -> expected_end o s = SError).
Proof. exact expected_end_cases. Qed.
Theorem C15_return_mapping :
  forall s, (s = SError -> return_state s = SError) /\ (s = SAborted -> return_state s = SAborted) /\ (s = SSkipped -> return_state s = SSkipped) /\
  (s <> SError -> s <> SAborted -> s <> SSkipped -> return_state s = SCompleted) /\ is_completed (return_state s) = true.
Proof. exact return_state_cases. Qed.

Example C15_example :
  call_check {| co_missing := false; co_child_end := Some (SError, 1018%Z); co_act_ends := [(SError, 1019%Z)]; co_act_open := false;
                co_parent_end := Some 1025%Z; co_inputs_ok := true; co_outs_ok := true; co_unsatisfied := false; co_quiescent := true |} = []
  /\ call_check {| co_missing := false; co_child_end := Some (SCompleted, 1018%Z); co_act_ends := [(SCompleted, 1010%Z)]; co_act_open := false;
                   co_parent_end := None; co_inputs_ok := true; co_outs_ok := true; co_unsatisfied := false; co_quiescent := true |} = [1501].
Proof. vm_compute. auto. Qed.

(* the return mapping, statically tied to the source: gen/GenReturn.v is regenerated from Runtime::return_to_act
   (acts/src/scheduler/runtime.rs) on every run -- the arms of `match state` and its default.  The action the model
   sends to the calling act for a child that ended in state s is the action the source's table names, for every
   state; and the state the calling act is closed with (`return_state`, what the checker expects) is the one that
   action writes (`closing`), the error return apart (it raises the error with the child's code). *)
Theorem C15_return_mapping_matches_source :
  forall s code, ev_name (return_action s code) = return_event s /\
    return_end s = return_state s /\
    (s <> SError -> closing (return_action s code) = Some (return_state s)).
Proof.
  intros s code. split; [exact (return_map_match s code)|]. split; [destruct s; reflexivity|].
  intros H. rewrite (return_action_closing s code H). destruct s; reflexivity.
Qed.

Print Assumptions C15_accepted_observation.
Print Assumptions C15_forced_close_stays_single.
Print Assumptions C15_return_closes_the_act_for_good.
Print Assumptions C15_return_end_is_the_mapping.
Print Assumptions C15_missing_model_fails_the_act.
Print Assumptions C15_return_mapping.
Print Assumptions C15_expected_end.
Print Assumptions C15_caught_child_error_completes_the_act.
Print Assumptions C15_return_mapping_matches_source.
